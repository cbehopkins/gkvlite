(* ascendChoice, descendChoice and visitNodes against Treap.visit (C06, C19). *)
From GK Require Import Base Treap Codec Blocks GExpr Generated DecBase.
From Coq Require Import ZArith NArith List String Bool Lia.
Import ListNotations.
Open Scope string_scope.
Open Scope list_scope.
Open Scope Z_scope.

(* ascendChoice / descendChoice (collection.go) are the choices of Treap.visit *)
Theorem ascend_choice_decision :
  exists c, choice_of "ascendChoice" = Some c /\
    forall o : comparison, gtrue (upd env0 "cmp" (cmpz o)) c = Some (match o with Gt => false | _ => true end).
Proof. eexists. split; [vm_compute; reflexivity|]. intros [ | | ]; reflexivity. Qed.

Theorem descend_choice_decision :
  exists c, choice_of "descendChoice" = Some c /\
    forall o : comparison, gtrue (upd env0 "cmp" (cmpz o)) c = Some (match o with Gt => true | _ => false end).
Proof. eexists. split; [vm_compute; reflexivity|]. intros [ | | ]; reflexivity. Qed.

(* visitNodes stops as soon as the visitor answers false (C06 early stop) *)
Theorem visitor_stop_decision :
  exists c, decisions "Store.visitNodes" "visitor" = [c] /\
    forall answer : bool, gtrue (upd env0 "visitor(nItem,depth)" (b2z answer)) c = Some (negb answer).
Proof. eexists. split; [vm_compute; reflexivity|]. intros [|]; reflexivity. Qed.

(* visitNodes reads the item key-only on the way down and re-reads it with exactly the caller's withValue before
   delivering it (C19, C06) *)
Theorem visit_item_reads :
  filter (fun c => String.eqb (fst c) "nItemLoc.read") (calls_a 400 (body "Store.visitNodes")) =
  [("nItemLoc.read", [GVar "t"; GVar "false"]); ("nItemLoc.read", [GVar "t"; GVar "withValue"])].
Proof. vm_compute. reflexivity. Qed.

