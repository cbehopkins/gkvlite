(* RefcountVisit.v — C15, the item a visit hands to its visitor.  In the repaired code (367e600) visitNodes takes a
   reference of its own before it calls the visitor and gives it back after the last use of the item: in the model that
   is EvHandOut n ... EvGiveBack i around the visitor's events.  While it is held, NO sequence of other events -- the
   evictions of nested visits, freed nodes, reloads, other callers taking and returning references of their own to other
   items -- brings the item's count to zero.  Without it (the code as found) one eviction of the node is enough. *)
From stdpp Require Import gmap.
From GK Require Import Refcount.

Local Open Scope Z_scope.

(* every event but a give-back of item i ([out] does not record whose reference comes back, so a give-back of i by
   anyone counts as the holder's) *)
Definition not_giveback (i : item) (e : event) : Prop :=
  match e with EvGiveBack j => j ≠ i | _ => True end.

Lemma out_step_keeps s e s' i : step s e = Some s' → not_giveback i e → (out s i > 0)%nat → (out s' i > 0)%nat.
Proof.
  (* [out] moves at EvHandOut (up) and at EvGiveBack j, j ≠ i, only *)
  intros Hs Hn Ho. destruct e; simpl in Hs; repeat case_match; simplify_eq; simpl;
    rewrite ?release_out, ?upd_at; [done..| |by rewrite decide_False].
  case_decide; [subst|]; lia.
Qed.

(* the visitor's item stays positive, whatever else happens, until the visit itself gives the reference back *)
Theorem held_item_stays_positive s n i s1 :
  reachable s → owner s !! n = Some i → step s (EvHandOut n) = Some s1 →
  ∀ es s2, run s1 es = Some s2 → Forall (not_giveback i) es → (out s2 i > 0)%nat ∧ 1 ≤ cnt s2 i.
Proof.
  intros Hr Ho Hs es s2 Hrun Hall.
  assert (reachable s2 ∧ (out s2 i > 0)%nat) as [Hr2 Ho2]; [|by split; [|apply handed_positive]].
  apply (run_invariant (λ s, reachable s ∧ (out s i > 0)%nat) (not_giveback i)) with es s1; [| |done..].
  - intros s0 e s0' [H0 Hp] Hok Hst. split; [by eapply reach_step|by eapply out_step_keeps].
  - split; [by eapply reach_step|]. simpl in Hs. rewrite Ho in Hs. injection Hs as <-. simpl.
    rewrite upd_at, decide_True by done. lia.
Qed.

(* the code as found: the item is delivered without a reference of the visit's own; one eviction of its node (what a
   nested visit does when it leaves the node) and the count is zero while the visitor still uses the item *)
Theorem unheld_item_released_under_visitor :
  ∃ s n i s', reachable s ∧ owner s !! n = Some i ∧ cnt s i = 1 ∧ step s (EvEvict n) = Some s' ∧ cnt s' i = 0.
Proof.
  eexists _, 1%positive, 1%positive, _. split_and!.
  - exact (reach_step _ _ _ reach_init (step_load_fresh init 1%positive 1%positive eq_refl (fresh_init _))).
  - apply lookup_insert.
  - simpl. by rewrite upd_at, decide_True.
  - done.
  - rewrite (release_Some _ _ 1%positive) by apply lookup_insert. simpl.
    by rewrite add_at, upd_at, !decide_True.
Qed.

(* CopyTo's destination store is created without the source's callbacks (the known finding
   copyto-destination-uncounted): dstColl.SetItem(i) makes a node of the destination own item i, but the application's counter does not move (ItemAddRef of the destination is not reported). *)
Inductive event'' :=
| Ev2 (e : event)
| EvShareUncounted (n : node) (i : item).   (* post: owner n := i, counter untouched *)

Definition step'' (s : state) (e : event'') : option state :=
  match e with
  | Ev2 e => step s e
  | EvShareUncounted n i =>
    match owner s !! n with
    | None => Some (mkState (cnt s) (<[n:=i]> (owner s)) (out s))
    | Some _ => None
    end
  end.

Inductive reachable'' : state → Prop :=
| reach_init'' : reachable'' init
| reach_step'' s e s' : reachable'' s → step'' s e = Some s' → reachable'' s'.

(* load an item into node 1 of the source, share it uncounted with node 2 of the destination, let the source's visit
   leave node 1 (eviction): node 2 still caches the item, its count is zero *)
Theorem copyto_uncounted_refuted :
  ¬ (∀ s n i, reachable'' s → owner s !! n = Some i → 1 ≤ cnt s i).
Proof.
  intros H.
  set (s1 := mkState (upd (cnt init) 1%positive 1) (<[1%positive:=1%positive]> (owner init)) (out init)).
  set (s2 := mkState (cnt s1) (<[2%positive:=1%positive]> (owner s1)) (out s1)).
  assert (R : reachable'' (release s2 1%positive)).
  { apply (reach_step'' s2 (Ev2 (EvEvict 1%positive))); [|done].
    apply (reach_step'' s1 (EvShareUncounted 2%positive 1%positive)); [|done].
    apply (reach_step'' init (Ev2 (EvLoad 1%positive 1%positive))); [apply reach_init''|].
    by apply (step_load_fresh init), fresh_init. }
  rewrite (release_Some _ _ 1%positive) in R by (simpl; by rewrite lookup_insert_ne, lookup_insert).
  specialize (H _ 2%positive 1%positive R). simpl in H.
  rewrite lookup_delete_ne, lookup_insert, add_at, upd_at, !decide_True in H by done.
  by specialize (H eq_refl).
Qed.
