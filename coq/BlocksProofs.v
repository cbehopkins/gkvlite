(* BlocksProofs.v — Len, determineBlocks and the two block-wise enumerations of Blocks.v
   (VisitItemsAscendBlockEx, VisitItemsRandom): every item is delivered exactly once (C16).

   The structural lemmas hold for an arbitrary block length L, with 1 <= L where the code
   needs it; max_block_cnt is only ever handled as an abstract M >= 1. *)
From GK Require Import Base Blocks CodecProofs.
From Coq Require Import Arith Lia List Permutation.
Local Open Scope nat_scope.

(* Blocks.v closes its Section over an explicit A; make it implicit here (notation only,
   no definition is changed). *)
Arguments visit_from {A S} v st l.
Arguments len_visit {A} l.
Arguments first_pass_v {A} lenBlock st _.
Arguments block_starts {A} lenBlock l.
Arguments block_v {A} lenBlock st x.
Arguments visit_block {A} lenBlock l start.
Arguments block_visit {A} mangle l.
Arguments random_step {A} l cur.
Arguments random_round {A} l bs.
Arguments random_rounds {A} n l bs.
Arguments random_visit {A} mangle l.
Arguments random_step_pinned {A} l cur.

Lemma flat_map_app_pointwise : forall (I B : Type) (g h : I -> list B) (rs : list I),
  Permutation (flat_map (fun i => g i ++ h i) rs) (flat_map g rs ++ flat_map h rs).
Proof.
  induction rs as [|i rs IH].
  - constructor.
  - cbn [flat_map]. rewrite <- !app_assoc. apply Permutation_app_head.
    rewrite IH. rewrite !app_assoc. apply Permutation_app_tail.
    apply Permutation_app_comm.
Qed.

Theorem len_spec : forall (A : Type) (l : list A), len_visit l = length l.
Proof.
  intros A l. unfold len_visit. change (length l) with (0 + length l). generalize 0.
  induction l as [|x l IH]; intros c; cbn [visit_from length]; [|rewrite IH]; lia.
Qed.

Lemma max_block_cnt_pos : 1 <= max_block_cnt.
Proof. apply Nat.leb_le. vm_compute. reflexivity. Qed.

Theorem determine_blocks_facts : forall cnt, 1 <= cnt ->
  let '(nb, L) := determine_blocks cnt in
  1 <= L /\ 1 <= nb /\
  (cnt <= max_block_cnt -> L = 1 /\ nb = cnt) /\
  (max_block_cnt < cnt ->
     nb = max_block_cnt /\
     L = (cnt + max_block_cnt - 1) / max_block_cnt /\          (* ceil (cnt / 1024) *)
     cnt <= L * max_block_cnt /\ (L - 1) * max_block_cnt < cnt) /\
  cnt <= nb * (L + 1).
Proof.
  intros cnt Hc. unfold determine_blocks.
  generalize max_block_cnt_pos. generalize max_block_cnt. intros M HM.
  destruct (Nat.ltb_spec M cnt) as [Hlt|Hge]; [|lia].
  pose proof (Nat.div_mod cnt M ltac:(lia)) as Hdm.
  pose proof (Nat.mod_upper_bound cnt M ltac:(lia)) as Hub.
  assert (Hq : 1 <= cnt / M) by (apply Nat.div_str_pos; lia).
  set (L := cnt / M + _).
  (* L is the ceiling of cnt / M; the quotient form follows from the two bounds *)
  assert (H : 1 <= L /\ cnt <= L * M /\ L * M - M < cnt)
    by (subst L; destruct (Nat.eqb_spec (cnt mod M) 0); lia).
  rewrite Nat.mul_sub_distr_r, Nat.mul_1_l.
  assert (L = (cnt + M - 1) / M) by (apply (Nat.div_unique _ _ _ (cnt + M - 1 - M * L)); lia).
  repeat split; lia.
Qed.

(* the only fact the enumerations rely on *)
Lemma determine_blocks_len_pos : forall cnt, 1 <= cnt -> 1 <= snd (determine_blocks cnt).
Proof.
  intros cnt Hc. pose proof (determine_blocks_facts cnt Hc) as H.
  destruct (determine_blocks cnt) as [nb L]. cbn [snd]. tauto.
Qed.

Section FirstPass.
Variable A : Type.
Variable L : nat.

Definition accof (st : list nat * nat * nat) : list nat := fst (fst st).

(* number of blocks for n items: ceil (n / (L+1)) *)
Definition nblocks (n : nat) : nat := (n + L) / S L.

Lemma nblocks_0 : nblocks 0 = 0.
Proof. unfold nblocks. apply Nat.div_small. lia. Qed.

Lemma nblocks_S : forall m, nblocks (S m) = S (nblocks (m - L)).
Proof.
  intros m. unfold nblocks. destruct (le_lt_dec L m).
  - replace (S m + L) with (m - L + L + 1 * S L) by lia. rewrite Nat.div_add by lia. lia.
  - rewrite (Nat.div_small (m - L + L)) by lia. symmetry. apply (Nat.div_unique _ _ _ m); lia.
Qed.

Lemma nblocks_cover : forall n, n <= nblocks n * S L.
Proof.
  intros n. unfold nblocks. pose proof (Nat.mul_succ_div_gt (n + L) (S L)). lia.
Qed.

Lemma nblocks_start_lt : forall n i, i < nblocks n -> i * S L < n.
Proof.
  intros n i Hi. unfold nblocks in Hi.
  pose proof (Nat.mul_div_le (n + L) (S L)). pose proof (Nat.mul_le_mono_l _ _ (S L) Hi). lia.
Qed.

Hypothesis HL : 1 <= L.

(* inside a block (1 <= j <= L, r = L - j): the remaining S r items are skipped *)
Lemma first_pass_mid : forall (l : list A) (r j : nat) (acc : list nat) (pos : nat),
  1 <= j -> j + r = L ->
  accof (visit_from (first_pass_v L) (acc, j, pos) l) =
  accof (visit_from (first_pass_v L) (acc, 0, pos + S r) (skipn (S r) l)).
Proof.
  induction l as [|x l IH]; intros r j acc pos Hj Hr.
  - rewrite skipn_nil. reflexivity.
  - rewrite skipn_cons. cbn [visit_from first_pass_v].
    destruct (Nat.eqb_spec j 0); [lia|]. destruct (Nat.leb_spec L j).
    + replace r with 0 by lia. rewrite skipn_O, Nat.add_1_r. reflexivity.
    + destruct r as [|r]; [lia|]. rewrite (IH r (S j) acc (S pos)) by lia.
      replace (S pos + S r) with (pos + S (S r)) by lia. reflexivity.
Qed.

(* one whole block: its start is recorded, the next S L items are consumed *)
Lemma first_pass_block : forall (x : A) (l : list A) (acc : list nat) (pos : nat),
  accof (visit_from (first_pass_v L) (acc, 0, pos) (x :: l)) =
  accof (visit_from (first_pass_v L) (pos :: acc, 0, pos + S L) (skipn L l)).
Proof.
  intros x l acc pos. cbn [visit_from first_pass_v Nat.eqb].
  rewrite (first_pass_mid l (L - 1) 1 (pos :: acc) (S pos)) by lia.
  replace (S (L - 1)) with L by lia.
  replace (S pos + L) with (pos + S L) by lia. reflexivity.
Qed.

Lemma first_pass_spec : forall (n : nat) (l : list A), length l <= n ->
  forall (acc : list nat) (pos : nat),
  accof (visit_from (first_pass_v L) (acc, 0, pos) l) =
  rev (map (fun k => pos + k * S L) (seq 0 (nblocks (length l)))) ++ acc.
Proof.
  induction n as [|n IH]; intros [|x l] Hn acc pos; cbn [length] in Hn |- *;
    try (rewrite nblocks_0; reflexivity); [lia|].
  rewrite first_pass_block, IH, skipn_length, nblocks_S by (rewrite skipn_length; lia).
  generalize (nblocks (length l - L)). intros k.
  cbn [seq map rev]. rewrite <- seq_shift, map_map, <- app_assoc. cbn [app].
  f_equal; [|f_equal; lia]. f_equal. apply map_ext. intros i. lia.
Qed.

End FirstPass.

(* needs 1 <= L: for L = 0 the code's counter still makes blocks of 2 (block_starts_L0 below) *)
Theorem block_starts_spec : forall (A : Type) (L : nat) (l : list A), 1 <= L ->
  block_starts L l = map (fun k => k * (L + 1)) (seq 0 ((length l + L) / (L + 1))).
Proof.
  intros A L l HL. unfold block_starts.
  pose proof (first_pass_spec A L HL (length l) l (le_n _) [] 0) as H.
  destruct (visit_from (first_pass_v L) ([], 0, 0) l) as [[acc j] pos].
  cbn [accof fst] in H. rewrite H, app_nil_r, rev_involutive, Nat.add_1_r. reflexivity.
Qed.

Lemma block_starts_lt : forall (A : Type) (L : nat), 1 <= L -> forall (l : list A) (s : nat),
  In s (block_starts L l) -> s < length l.
Proof.
  intros A L HL l s Hin. rewrite block_starts_spec, Nat.add_1_r in Hin by exact HL.
  apply in_map_iff in Hin. destruct Hin as (i & <- & Hi).
  apply in_seq in Hi. apply nblocks_start_lt. exact (proj2 Hi).
Qed.

Lemma visit_block_gen : forall (A : Type) (L : nat) (m : list A) (r j : nat) (out : list A),
  j + r = L ->
  fst (visit_from (block_v L) (out, j) m) = rev (firstn (S r) m) ++ out.
Proof.
  intros A L. induction m as [|x m IH]; intros r j out Hr.
  - reflexivity.
  - cbn [visit_from block_v]. destruct (Nat.eqb_spec j L).
    + replace r with 0 by lia. reflexivity.
    + destruct r as [|r]; [lia|]. rewrite (IH r (S j)) by lia.
      rewrite (firstn_cons (S r) x m). cbn [rev]. rewrite <- app_assoc. reflexivity.
Qed.

Theorem visit_block_spec : forall (A : Type) (L : nat) (l : list A) (s : nat),
  visit_block L l s = firstn (S L) (skipn s l).
Proof.
  intros A L l s. unfold visit_block.
  rewrite (visit_block_gen A L (skipn s l) L 0 []) by lia.
  rewrite app_nil_r. apply rev_involutive.
Qed.

Lemma segments_concat_gen : forall (A : Type) (B k : nat) (l : list A),
  length l <= k * B ->
  flat_map (fun s => firstn B (skipn s l)) (map (fun i => i * B) (seq 0 k)) = l.
Proof.
  intros A B. induction k as [|k IH]; intros l Hl.
  - destruct l; [reflexivity | cbn [length] in Hl; lia].
  - cbn [seq map flat_map]. rewrite <- seq_shift. rewrite map_map.
    transitivity (firstn B l ++ skipn B l); [|apply firstn_skipn].
    change (0 * B) with 0. rewrite skipn_O. apply (f_equal (app (firstn B l))).
    etransitivity; [|apply (IH (skipn B l)); rewrite skipn_length; lia].
    rewrite !flat_map_concat_map. f_equal. rewrite !map_map.
    apply map_ext. intros i. rewrite skipn_skipn'. reflexivity.
Qed.

Theorem segments_concat : forall (A : Type) (L : nat) (l : list A), 1 <= L ->
  flat_map (fun s => firstn (S L) (skipn s l)) (block_starts L l) = l.
Proof.
  intros A L l HL. rewrite block_starts_spec, Nat.add_1_r by exact HL.
  apply segments_concat_gen, nblocks_cover.
Qed.

Theorem block_segments_concat : forall (A : Type) (L : nat) (l : list A), 1 <= L ->
  flat_map (visit_block L l) (block_starts L l) = l.
Proof.
  intros A L l HL.
  rewrite (flat_map_ext _ _ (visit_block_spec A L l)).
  apply segments_concat; assumption.
Qed.

(* segments_concat is false for L = 0: with lenBlock = 0 the first pass still records every
   second position (j: 0 -> 1 -> 0), while the second pass delivers a single item per block,
   so the odd positions are lost.  determine_blocks never returns L = 0 for cnt >= 1
   (determine_blocks_facts), so the enumerations are unaffected. *)
Example block_starts_L0 : block_starts 0 [10; 11; 12; 13] = [0; 2].
Proof. vm_compute. reflexivity. Qed.

Example segments_concat_L0_false :
  flat_map (fun s => firstn 1 (skipn s [10; 11; 12; 13])) (block_starts 0 [10; 11; 12; 13])
  = [10; 12].
Proof. vm_compute. reflexivity. Qed.

Theorem segments_concat_any_L_refuted :
  ~ (forall (A : Type) (L : nat) (l : list A),
       flat_map (fun s => firstn (S L) (skipn s l)) (block_starts L l) = l).
Proof.
  intros H. specialize (H nat 0 [10; 11; 12; 13]).
  rewrite segments_concat_L0_false in H. discriminate H.
Qed.

(* both visits of a non-empty collection, with the block length determineBlocks chose *)
Lemma visits_unfold : forall (A : Type) (x : A) (l' : list A), let l := x :: l' in
  exists L, 1 <= L /\
    (forall mangle, block_visit mangle l = flat_map (visit_block L l) (mangle (block_starts L l))) /\
    (forall mangle, random_visit mangle l =
                    random_rounds (S L) l (map Some (mangle (block_starts L l)))).
Proof.
  intros A x l' l. exists (snd (determine_blocks (len_visit l))). split.
  - apply determine_blocks_len_pos. rewrite len_spec. cbn [length l]. lia.
  - unfold block_visit, random_visit, l. destruct (determine_blocks _). split; reflexivity.
Qed.

(* with the blocks in their own order the visit is the plain ascending one *)
Lemma block_visit_id : forall (A : Type) (l : list A), block_visit (fun bs => bs) l = l.
Proof.
  intros A [|x l]; [reflexivity|]. destruct (visits_unfold A x l) as (L & HL & -> & _).
  apply block_segments_concat, HL.
Qed.

Theorem block_visit_perm : forall (A : Type) (l : list A) (mangle : list nat -> list nat),
  (forall bs, Permutation (mangle bs) bs) ->
  Permutation (block_visit mangle l) l.
Proof.
  intros A [|x l] mangle Hm; [constructor|]. destruct (visits_unfold A x l) as (L & HL & -> & _).
  rewrite Hm, block_segments_concat by exact HL. reflexivity.
Qed.

Section Random.
Variable A : Type.
Variable l : list A.

(* a block's state when its next item is at position p *)
Definition rstate (p : nat) : option nat := if p <? length l then Some p else None.

(* length (skipn p l) = length l - p ties the shape of the suffix to the two comparisons *)
Lemma random_step_rstate : forall p,
  random_step l (rstate p) = (firstn 1 (skipn p l), rstate (S p)).
Proof.
  intros p. unfold rstate. pose proof (skipn_length p l) as E.
  destruct (Nat.ltb_spec p (length l)), (Nat.ltb_spec (S p) (length l)); cbn [random_step];
    destruct (skipn p l) as [|x [|y rest]]; cbn [length] in E; try lia; reflexivity.
Qed.

(* round r delivers, for each block start s (in the given order), the item at r + s if any *)
Lemma random_round_rstate : forall r bs,
  random_round l (map (fun s => rstate (r + s)) bs) =
  (flat_map (fun s => firstn 1 (skipn (r + s) l)) bs, map (fun s => rstate (S r + s)) bs).
Proof.
  intros r. induction bs as [|s bs IH].
  - reflexivity.
  - cbn [map random_round flat_map]. rewrite random_step_rstate, IH. reflexivity.
Qed.

(* k rounds from round r on: each block delivers its next k items; every round peels
   one item off each block *)
Lemma random_rounds_rstate : forall k r bs,
  Permutation (random_rounds k l (map (fun s => rstate (r + s)) bs))
              (flat_map (fun s => firstn k (skipn (r + s) l)) bs).
Proof.
  induction k as [|k IH]; intros r bs.
  - induction bs as [|s bs IHbs]; [constructor | exact IHbs].
  - cbn [random_rounds]. rewrite random_round_rstate, IH, <- flat_map_app_pointwise.
    rewrite (flat_map_ext _ (fun s => firstn (S k) (skipn (r + s) l))); [reflexivity|].
    intros s. change (S r + s) with (S (r + s)).
    rewrite <- (Nat.add_1_r (r + s)), <- (skipn_skipn' 1).
    destruct (skipn (r + s) l); [destruct k|]; reflexivity.
Qed.

End Random.

Theorem random_visit_perm : forall (A : Type) (l : list A) (mangle : list nat -> list nat),
  (forall bs, Permutation (mangle bs) bs) ->
  Permutation (random_visit mangle l) l.
Proof.
  intros A [|x l] mangle Hm; [constructor|]. destruct (visits_unfold A x l) as (L & HL & _ & ->).
  (* every start is a valid position, so the initial states are rstate (0 + s) *)
  rewrite (map_ext_in Some (fun s => rstate A (x :: l) (0 + s))).
  - rewrite random_rounds_rstate, Hm. cbn [Nat.add]. rewrite segments_concat by exact HL. reflexivity.
  - intros s Hs%(Permutation_in _ (Hm _))%(block_starts_lt A L HL).
    unfold rstate. cbn [Nat.add]. apply Nat.ltb_lt in Hs. rewrite Hs. reflexivity.
Qed.

(* VisitItemsRandom as it was before the repair: the same rounds over Blocks.random_step_pinned *)
Fixpoint random_round_pinned {A : Type} (l : list A) (bs : list (option nat))
  : list A * list (option nat) :=
  match bs with
  | [] => ([], [])
  | b :: bs' =>
    let '(d, b') := random_step_pinned l b in
    let '(ds, bs'') := random_round_pinned l bs' in
    (d ++ ds, b' :: bs'')
  end.

Fixpoint random_rounds_pinned {A : Type} (n : nat) (l : list A) (bs : list (option nat)) : list A :=
  match n with
  | O => []
  | S k => let '(d, bs') := random_round_pinned l bs in d ++ random_rounds_pinned k l bs'
  end.

Definition random_visit_pinned {A : Type} (mangle : list nat -> list nat) (l : list A) : list A :=
  match l with
  | [] => []
  | _ =>
    let '(_, lenBlock) := determine_blocks (len_visit l) in
    random_rounds_pinned (S lenBlock) l (map Some (mangle (block_starts lenBlock l)))
  end.

(* the single item of a one-item collection is delivered twice *)
Example random_pinned_witness : random_visit_pinned (fun bs => bs) [7] = [7; 7].
Proof. vm_compute. reflexivity. Qed.

Theorem random_pinned_refuted :
  exists l : list nat, ~ Permutation (random_visit_pinned (fun bs => bs) l) l.
Proof.
  exists [7]. intros H. apply Permutation_length in H.
  rewrite random_pinned_witness in H. cbn [length] in H. discriminate H.
Qed.

Example determine_blocks_2049 : determine_blocks 2049 = (1024, 3).
Proof. vm_compute. reflexivity. Qed.

Example determine_blocks_1024 : determine_blocks 1024 = (1024, 1).
Proof. vm_compute. reflexivity. Qed.

Example determine_blocks_2048 : determine_blocks 2048 = (1024, 2).
Proof. vm_compute. reflexivity. Qed.

(* 41 items, lenBlock 1: blocks [0;1] ... [38;39] [40], delivered last block first *)
Example block_visit_rev_41 :
  block_visit (@rev nat) (seq 0 41) =
  40 :: flat_map (fun k => [2 * k; 2 * k + 1]) (rev (seq 0 20)).
Proof. vm_compute. reflexivity. Qed.

(* 5 items, lenBlock 1, starts [0;2;4]: round 0 delivers 0 2 4, round 1 delivers 1 3 *)
Example random_visit_id_5 : random_visit (fun bs => bs) (seq 0 5) = [0; 2; 4; 1; 3].
Proof. vm_compute. reflexivity. Qed.

Example random_visit_rev_5 : random_visit (@rev nat) (seq 0 5) = [4; 2; 0; 3; 1].
Proof. vm_compute. reflexivity. Qed.

(* beyond 1024 items: 2049 items, lenBlock 3 (blocks of 4), nothing lost or duplicated *)
Example block_visit_id_2049 : block_visit (fun bs => bs) (seq 0 2049) = seq 0 2049.
Proof. apply block_visit_id. Qed.

Example random_visit_2049_length : length (random_visit (@rev nat) (seq 0 2049)) = 2049.
Proof.
  exact (eq_trans (Permutation_length (random_visit_perm nat _ (@rev nat)
                     (fun bs => Permutation_sym (Permutation_rev bs)))) (seq_length _ _)).
Qed.

Example len_visit_nil : len_visit (@nil nat) = 0.
Proof. reflexivity. Qed.
