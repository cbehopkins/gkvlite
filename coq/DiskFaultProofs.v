(* A Flush in which one WriteAt call fails (DiskFault.v; C07).  It only appends (flush_fault_durable),
   keeps names, comparators and contents (flush_fault_contents) and leaves collections that the file
   still represents (flush_fault_coll_ok); a re-open after it sees the previous Flush
   (flush_fault_reopen); and it can be retried: the retried Flush produces exactly the file, size and
   collections of a Flush that never failed (flush_retry_same). *)
From GK Require Import Base Treap TreapSpec Store Codec CodecProofs Disk DiskProofs DiskFault.
From Coq Require Import Lia ZArith NArith List Bool.
Import ListNotations.
Open Scope Z_scope.

(* [inversion] and [injection] on an equation between pairs normalise the record encoders
   (blen, enc_item_hdr) into pages of matches; this does not *)
Ltac pinv H := apply pair_equal_spec in H; destruct H as [<- <-].
Ltac tinv H := apply pair_equal_spec in H; destruct H as [H <-]; pinv H.
Ltac qinv H := apply pair_equal_spec in H; destruct H as [H <-]; tinv H.

Lemma write_at_over g off p d : 0 <= off <= blen g -> (length p <= length d)%nat ->
  write_at (write_at g off p) off d = write_at g off d.
Proof.
  intros Ho Hp. unfold write_at. set (o := Z.to_nat off).
  assert (Ha : length (firstn o g) = o) by (rewrite firstn_length; unfold blen in Ho; lia).
  rewrite (firstn_app_len _ _ o Ha). f_equal. f_equal.
  rewrite (skipn_app_len _ _ o _ Ha).
  replace (length d) with (length p + (length d - length p))%nat at 1 by lia.
  rewrite (skipn_app_len _ _ (length p) _ eq_refl). rewrite skipn_skipn'. f_equal. lia.
Qed.

Lemma blen_hdr_key it : blen (enc_item_hdr it ++ ikey it) = item_hdr_len + blen (ikey it).
Proof. rewrite blen_app. unfold blen at 1. now rewrite enc_item_hdr_length. Qed.

Lemma enc_item_split it : enc_item it = (enc_item_hdr it ++ ikey it) ++ ival it.
Proof. unfold enc_item. now rewrite app_assoc. Qed.

Lemma len_torn_hk torn it :
  (length (firstn torn (enc_item_hdr it ++ ikey it)) <= length (enc_item it))%nat.
Proof.
  rewrite enc_item_split, firstn_length.
  rewrite (app_length (enc_item_hdr it ++ ikey it) (ival it)). lia.
Qed.

Lemma len_torn_val torn it :
  (length ((enc_item_hdr it ++ ikey it) ++ firstn torn (ival it)) <= length (enc_item it))%nat.
Proof.
  rewrite enc_item_split.
  rewrite (app_length (enc_item_hdr it ++ ikey it) (ival it)).
  rewrite (app_length (enc_item_hdr it ++ ikey it) (firstn torn (ival it))), firstn_length. lia.
Qed.

(* store states: size inside the file; w' extends w when nothing below the size of w has changed
   and the size has not moved backwards.  This is DiskProofs.ext without its last clause: a torn
   write leaves bytes beyond the size. *)
Definition wok (w : wst) : Prop := 0 <= w_size w <= blen (w_file w).

Definition wext (w w' : wst) : Prop :=
  agree (w_file w) (w_file w') (w_size w) /\ w_size w <= w_size w' <= blen (w_file w').

Lemma wext_refl w : wok w -> wext w w.
Proof. intros H. split; [apply agree_refl|unfold wok in H; lia]. Qed.

Lemma wext_trans a b c : wext a b -> wext b c -> wext a c.
Proof. intros (A1 & A2) (B1 & B2). split; [eapply agree_trans; eauto; lia|lia]. Qed.

Lemma wext_wok w w' : wok w -> wext w w' -> wok w'.
Proof. unfold wok. intros H (_ & A2). lia. Qed.

Lemma fwrite_ext torn w off buf w' ok : wok w -> w_size w <= off <= blen (w_file w) ->
  fwrite torn w off buf = (w', ok) ->
  wext w w' /\ w_size w' = w_size w /\ (ok = true -> off + blen buf <= blen (w_file w')).
Proof.
  intros Hw Ho H. unfold fwrite in H. unfold wok in Hw.
  assert (Hag : forall d, wext w (mkW (write_at (w_file w) off d) (w_size w) O true) /\
                          off + blen d <= blen (write_at (w_file w) off d)).
  { intros d. rewrite blen_write_at by lia. split; [|lia]. split; cbn [w_file w_size].
    - eapply agree_mono; [apply agree_write_at|]; lia.
    - rewrite blen_write_at by lia. lia. }
  destruct (w_failed w).
  { pinv H. split; [now apply wext_refl|]. split; [reflexivity|discriminate]. }
  destruct (w_left w) as [|n]; pinv H; cbn [w_file w_size].
  - split; [apply Hag|]. split; [reflexivity|discriminate].
  - destruct (Hag buf) as ((A1 & A2) & A3). split; [split; assumption|]. split; [reflexivity|intros _; exact A3].
Qed.

Lemma write_item_f_ext torn w it w' o : wok w -> write_item_f torn w it = (w', o) -> wext w w'.
Proof.
  intros Hw H. unfold write_item_f in H. pose proof Hw as Hw0. unfold wok in Hw0.
  destruct (fwrite torn w (w_size w) (enc_item_hdr it ++ ikey it)) as [w1 ok1] eqn:E1.
  destruct (fwrite_ext _ _ _ _ _ _ Hw (conj (Z.le_refl _) (proj2 Hw0)) E1) as (X1 & S1 & B1).
  destruct ok1; [|pinv H; exact X1]. specialize (B1 eq_refl). rewrite blen_hdr_key in B1.
  pose proof (blen_nonneg (ikey it)) as Hk. change item_hdr_len with 16 in *.
  destruct (fwrite torn w1 (w_size w + 16 + blen (ikey it)) (ival it)) as [w2 ok2] eqn:E2.
  assert (Ho : w_size w1 <= w_size w + 16 + blen (ikey it) <= blen (w_file w1)) by lia.
  destruct (fwrite_ext _ _ _ _ _ _ (wext_wok _ _ Hw X1) Ho E2) as (X2 & S2 & B2).
  apply (wext_trans _ w1); [exact X1|].
  destruct ok2; pinv H; [|exact X2]. specialize (B2 eq_refl). destruct X2 as (A1 & A2).
  split; cbn [set_size w_file w_size]; [exact A1|]. rewrite item_loc_len_eq. pose proof (blen_nonneg (ival it)). lia.
Qed.

Lemma put_item_f_ext torn w il it w2 il' : wok w ->
  match il with Some _ => (w, il) | None => write_item_f torn w it end = (w2, il') -> wext w w2.
Proof.
  intros Hw H. destruct il; [pinv H; now apply wext_refl|exact (write_item_f_ext _ _ _ _ _ Hw H)].
Qed.

Lemma write_items_f_ext torn : forall t w w' t', wok w -> write_items_f torn w t = (w', t') -> wext w w'.
Proof.
  induction t as [|nl l IHl il it nn nb r IHr]; intros w w' t' Hw H; cbn [write_items_f] in H.
  - pinv H. now apply wext_refl.
  - destruct nl as [p|]; [pinv H; now apply wext_refl|].
    destruct (write_items_f torn w l) as [w1 l'] eqn:El. pose proof (IHl _ _ _ Hw El) as X1.
    destruct (w_failed w1); [pinv H; exact X1|].
    pose proof (wext_wok _ _ Hw X1) as Hw1.
    destruct (match il with Some _ => (w1, il) | None => write_item_f torn w1 it end) as [w2 il'] eqn:Ei.
    pose proof (put_item_f_ext _ _ _ _ _ _ Hw1 Ei) as X2.
    apply (wext_trans _ w1); [exact X1|]. destruct (w_failed w2); [pinv H; exact X2|].
    destruct (write_items_f torn w2 r) as [w3 r'] eqn:Er. pinv H.
    apply (wext_trans _ w2); [exact X2|]. eapply IHr; [|exact Er]. eapply wext_wok; eauto.
Qed.

Lemma write_nodes_f_ext torn : forall t w w' t', wok w -> write_nodes_f torn w t = (w', t') -> wext w w'.
Proof.
  induction t as [|nl l IHl il it nn nb r IHr]; intros w w' t' Hw H; cbn [write_nodes_f] in H.
  - pinv H. now apply wext_refl.
  - destruct nl as [p|]; [pinv H; now apply wext_refl|].
    destruct (write_nodes_f torn w l) as [w1 l'] eqn:El. pose proof (IHl _ _ _ Hw El) as X1.
    destruct (w_failed w1); [pinv H; exact X1|].
    pose proof (wext_wok _ _ Hw X1) as Hw1. apply (wext_trans _ w1); [exact X1|].
    destruct (write_nodes_f torn w1 r) as [w2 r'] eqn:Er. pose proof (IHr _ _ _ Hw1 Er) as X2.
    destruct (w_failed w2); [pinv H; exact X2|].
    pose proof (wext_wok _ _ Hw1 X2) as Hw2. apply (wext_trans _ w2); [exact X2|].
    destruct (fwrite torn w2 (w_size w2) (enc_node il (root_loc l') (root_loc r') nn nb)) as [w3 ok] eqn:E3.
    destruct (fwrite_ext _ _ _ _ _ _ Hw2 (conj (Z.le_refl _) (proj2 Hw2)) E3) as (X3 & S3 & B3).
    destruct ok; pinv H; [|exact X3]. specialize (B3 eq_refl). rewrite blen_enc_node in B3.
    destruct X3 as (A1 & A2). split; cbn [set_size w_file w_size]; [exact A1|]. change node_len with 52 in *. lia.
Qed.

Lemma write_tree_f_ext torn t w w' t' : wok w -> write_tree_f torn w t = (w', t') -> wext w w'.
Proof.
  intros Hw H. unfold write_tree_f in H.
  destruct (write_items_f torn w t) as [w1 t1] eqn:Ei. pose proof (write_items_f_ext _ _ _ _ _ Hw Ei) as X1.
  destruct (w_failed w1); [pinv H; exact X1|].
  apply (wext_trans _ w1); [exact X1|]. eapply write_nodes_f_ext; [|exact H]. eapply wext_wok; eauto.
Qed.

Lemma write_colls_f_ext torn : forall cs w w' cs', wok w -> write_colls_f torn w cs = (w', cs') -> wext w w'.
Proof.
  induction cs as [|[n c] cs IH]; intros w w' cs' Hw H; cbn [write_colls_f] in H.
  - pinv H. now apply wext_refl.
  - destruct (write_tree_f torn w (c_tree c)) as [w1 t'] eqn:Et.
    pose proof (write_tree_f_ext _ _ _ _ _ Hw Et) as X1.
    destruct (w_failed w1); [pinv H; exact X1|].
    destruct (write_colls_f torn w1 cs) as [w2 cs2] eqn:Ec. pinv H.
    apply (wext_trans _ w1); [exact X1|]. eapply IH; [|exact Ec]. eapply wext_wok; eauto.
Qed.

(* itemLoc.write: both calls succeed, or the first or the second one fails; a second attempt
   overwrites the torn record *)
Lemma write_item_f_spec torn f s k it w1 o :
  write_item_f torn (mkW f s k false) it = (w1, o) ->
  (exists k' F, k = S (S k') /\ w1 = mkW F (s + item_loc_len it) k' false /\
       o = Some (mkPloc s (item_loc_len it)) /\ (0 <= s -> F = write_at f s (enc_item it)))
  \/ ((k < 2)%nat /\ w_failed w1 = true /\ o = None /\ w_size w1 = s /\
      (0 <= s <= blen f -> write_at (w_file w1) s (enc_item it) = write_at f s (enc_item it))).
Proof.
  intros H. unfold write_item_f, fwrite in H. cbn [w_failed w_left w_file w_size] in H.
  pose proof (blen_hdr_key it) as Hhk. pose proof (blen_nonneg (ikey it)) as Hk0.
  assert (Hoff : s + item_hdr_len + blen (ikey it) = s + blen (enc_item_hdr it ++ ikey it)) by lia.
  destruct k as [|[|k']]; cbn [w_failed w_left w_file w_size set_size] in H; pinv H; [right|right|left].
  - cbn [w_failed w_size w_file]. repeat (split; [lia || reflexivity|]).
    intros Hs. apply write_at_over; [assumption|]. apply len_torn_hk.
  - cbn [w_failed w_size w_file]. repeat (split; [lia || reflexivity|]).
    intros Hs. rewrite Hoff, write_at_app by lia. apply write_at_over; [assumption|]. apply len_torn_val.
  - eexists k', _. repeat (split; [reflexivity|]).
    intros Hs. rewrite Hoff, write_at_app by lia. now rewrite enc_item_split.
Qed.

(* a record written by one call at the size (node record, root record) *)
Lemma fwrite_record torn w d w' ok : w_failed w = false -> fwrite torn w (w_size w) d = (w', ok) ->
  w_size w' = w_size w /\
  (if ok then w_left w = S (w_left w') /\ w_failed w' = false /\ w_file w' = write_at (w_file w) (w_size w) d
   else w_left w = 0%nat /\ w_failed w' = true /\
        (wok w -> write_at (w_file w') (w_size w) d = write_at (w_file w) (w_size w) d)).
Proof.
  unfold fwrite. intros -> H. destruct (w_left w) as [|k]; pinv H;
    cbn [w_failed w_left w_file w_size]; (split; [reflexivity|]); [|auto].
  split; [reflexivity|]. split; [reflexivity|]. intros Hs. apply write_at_over; [exact Hs|].
  rewrite firstn_length. lia.
Qed.

(* the fault-free writers skip what is persisted, so a second run over their result changes nothing *)
Definition done (t : tree) : Prop := match t with T None _ _ _ _ _ _ => False | _ => True end.

Lemma done_located t : done t -> located t.
Proof. destruct t as [|[p|] l il it nn nb r]; cbn [done located]; tauto. Qed.

Lemma located_items_id : forall t f s, located t -> write_items f s t = (f, s, t).
Proof.
  induction t as [|nl l IHl il it nn nb r IHr]; intros f s H; [reflexivity|].
  destruct nl as [p|]; [reflexivity|]. cbn [located] in H. destruct H as (Hil & Hl & Hr).
  destruct il as [q|]; [|congruence]. cbn [write_items]. rewrite IHl, IHr by assumption. reflexivity.
Qed.

Lemma write_items_idem t f s f1 s1 t1 :
  write_items f s t = (f1, s1, t1) -> forall g z, write_items g z t1 = (g, z, t1).
Proof. intros H g z. apply located_items_id. apply (write_items_shape _ _ _ _ _ _ H). Qed.

Lemma put_item_idem f s il it f2 s2 il' :
  put_item f s il it = (f2, s2, il') -> forall g z, put_item g z il' it = (g, z, il').
Proof.
  intros H g z. destruct (put_item_shape _ _ _ _ _ _ _ H) as (_ & N).
  destruct il'; [reflexivity|congruence].
Qed.

Lemma write_nodes_done t f s f1 s1 t1 : write_nodes f s t = (f1, s1, t1) -> done t1.
Proof.
  destruct t as [|[p|] l il it nn nb r]; cbn [write_nodes]; intros H; [tinv H; exact I..|].
  destruct (write_nodes f s l) as [[fa sa] la]. destruct (write_nodes fa sa r) as [[fb sb] rb].
  tinv H. exact I.
Qed.

Lemma write_nodes_idem t f s f1 s1 t1 :
  write_nodes f s t = (f1, s1, t1) -> forall g z, write_nodes g z t1 = (g, z, t1).
Proof.
  intros H g z. apply write_nodes_done in H. destruct t1 as [|[p|] l il it nn nb r]; [reflexivity..|destruct H].
Qed.

Lemma write_tree_idem t f s f1 s1 t1 :
  write_tree f s t = (f1, s1, t1) -> forall g z, write_tree g z t1 = (g, z, t1).
Proof.
  unfold write_tree. destruct (write_items f s t) as [[fa sa] ta]. intros H g z.
  apply write_nodes_done in H. destruct t1 as [|[p|] l il it nn nb r]; [reflexivity..|destruct H].
Qed.

Lemma write_colls_idem : forall cs f s f1 s1 cs1,
  write_colls f s cs = (f1, s1, cs1) -> forall g z, write_colls g z cs1 = (g, z, cs1).
Proof.
  induction cs as [|[n c] cs IH]; intros f s f1 s1 cs1 H g z; cbn [write_colls] in H.
  - tinv H. reflexivity.
  - destruct (write_tree f s (c_tree c)) as [[fa sa] t'] eqn:E1.
    destruct (write_colls fa sa cs) as [[fb sb] cs2] eqn:E2. tinv H.
    cbn [write_colls c_tree c_cmp]. now rewrite (write_tree_idem _ _ _ _ _ _ E1), (IH _ _ _ _ _ E2).
Qed.

(* what the faulted writers leave of the tree: the contents; writeItems also the number of node
   writes still due, writeNodes also that every item has its location *)
Lemma write_items_f_shape torn : forall t w w1 t1,
  write_items_f torn w t = (w1, t1) -> erase t1 = erase t /\ node_calls t1 = node_calls t.
Proof.
  induction t as [|nl l IHl il it nn nb r IHr]; intros w w1 t1 H; cbn [write_items_f] in H.
  - pinv H. split; reflexivity.
  - destruct nl as [p|]; [pinv H; split; reflexivity|].
    destruct (write_items_f torn w l) as [wa la] eqn:El. destruct (IHl _ _ _ El) as (El1 & El2).
    destruct (w_failed wa).
    { pinv H. cbn [erase node_calls]. now rewrite El1, El2. }
    destruct (match il with Some _ => (wa, il) | None => write_item_f torn wa it end) as [w2 il'].
    destruct (w_failed w2).
    { pinv H. cbn [erase node_calls]. now rewrite El1, El2. }
    destruct (write_items_f torn w2 r) as [wb rb] eqn:Er. destruct (IHr _ _ _ Er) as (Er1 & Er2).
    pinv H. cbn [erase node_calls]. now rewrite El1, El2, Er1, Er2.
Qed.

Lemma write_nodes_f_shape torn : forall t w w1 t1,
  write_nodes_f torn w t = (w1, t1) -> erase t1 = erase t /\ (located t -> located t1).
Proof.
  induction t as [|nl l IHl il it nn nb r IHr]; intros w w1 t1 H; cbn [write_nodes_f] in H.
  - pinv H. split; [reflexivity|auto].
  - destruct nl as [p|]; [pinv H; split; [reflexivity|auto]|].
    destruct (write_nodes_f torn w l) as [wa la] eqn:El. destruct (IHl _ _ _ El) as (El1 & El2).
    destruct (w_failed wa).
    { pinv H. cbn [erase located]. rewrite El1. split; [reflexivity|tauto]. }
    destruct (write_nodes_f torn wa r) as [wb rb] eqn:Er. destruct (IHr _ _ _ Er) as (Er1 & Er2).
    destruct (w_failed wb).
    { pinv H. cbn [erase located]. rewrite El1, Er1. split; [reflexivity|tauto]. }
    destruct (fwrite torn wb (w_size wb) (enc_node il (root_loc la) (root_loc rb) nn nb)) as [w3 ok].
    destruct ok; pinv H; cbn [erase located]; rewrite El1, Er1; (split; [reflexivity|tauto]).
Qed.

(* the simulation: a faulted run from a state that has not failed either did not reach the failing
   call, and then is the fault-free run, or failed, and then the fault-free run from where it stopped
   gives what the fault-free run from the start gives.  In the proofs, a phase that did not fail has
   left a part on which the fault-free writer is the identity (write_*_idem). *)
Definition sim {A} (run : file -> Z -> A -> file * Z * A) (calls : nat)
    (w : wst) (a : A) (w1 : wst) (a1 : A) : Prop :=
  if w_failed w1
  then (w_left w < calls)%nat /\
       (wok w -> run (w_file w1) (w_size w1) a1 = run (w_file w) (w_size w) a)
  else w_left w = (w_left w1 + calls)%nat /\
       (0 <= w_size w -> run (w_file w) (w_size w) a = (w_file w1, w_size w1, a1)).

Lemma sim_id {A} (run : file -> Z -> A -> file * Z * A) w a :
  w_failed w = false -> run (w_file w) (w_size w) a = (w_file w, w_size w, a) -> sim run 0 w a w a.
Proof. intros F H. unfold sim. rewrite F. split; [lia|intros; assumption]. Qed.

Lemma put_item_f_sim torn w il it w2 il' : w_failed w = false ->
  match il with Some _ => (w, il) | None => write_item_f torn w it end = (w2, il') ->
  sim (fun f s il => put_item f s il it) (match il with None => 2 | Some _ => 0 end) w il w2 il'.
Proof.
  intros F H. destruct il as [q|]; [pinv H; now apply sim_id|].
  destruct w as [f s k fl]. cbn [w_failed] in F. subst fl. unfold sim. cbn [w_file w_size w_left].
  destruct (write_item_f_spec _ _ _ _ _ _ _ H) as [(k' & F' & -> & -> & -> & HF)|(Hk & -> & -> & -> & HR)];
    cbn [w_failed w_left w_file w_size put_item].
  - split; [lia|]. intros Hs. now rewrite (HF Hs).
  - split; [exact Hk|]. intros Hs. now rewrite (HR Hs).
Qed.

Lemma write_items_f_sim torn : forall t w w1 t1, w_failed w = false ->
  write_items_f torn w t = (w1, t1) -> sim write_items (item_calls t) w t w1 t1.
Proof.
  induction t as [|[p|] l IHl il it nn nb r IHr]; intros w w1 t1 F H; try (pinv H; now apply sim_id).
  cbn [write_items_f] in H. unfold sim. cbn [item_calls].
  destruct (write_items_f torn w l) as [wa la] eqn:El.
  pose proof (IHl _ _ _ F El) as Ca. unfold sim in Ca.
  pose proof (fun Hs => wext_wok _ _ Hs (write_items_f_ext _ _ _ _ _ Hs El)) as Hwa.
  destruct (w_failed wa) eqn:Fa.
  { (* failed in the left subtree *)
    pinv H. rewrite Fa. destruct Ca as (Ck & Cr). split; [lia|]. intros Hs.
    rewrite !write_items_dirty. now rewrite (Cr Hs). }
  destruct Ca as (Ck & Ce).
  destruct (match il with Some _ => (wa, il) | None => write_item_f torn wa it end) as [w2 il'] eqn:Ei.
  pose proof (put_item_f_sim _ _ _ _ _ _ Fa Ei) as Cb. unfold sim in Cb.
  destruct (w_failed w2) eqn:F2.
  { (* failed at the item *)
    pinv H. rewrite F2. destruct Cb as (Dk & Dr). split; [lia|]. intros Hs.
    rewrite !write_items_dirty, (Ce (proj1 Hs)), (write_items_idem _ _ _ _ _ _ (Ce (proj1 Hs))).
    now rewrite (Dr (Hwa Hs)). }
  destruct Cb as (Dk & De).
  destruct (write_items_f torn w2 r) as [wb rb] eqn:Er. pinv H.
  pose proof (IHr _ _ _ F2 Er) as Cc. unfold sim in Cc.
  destruct (w_failed wb).
  - (* failed in the right subtree *)
    destruct Cc as (Ek & Er'). split; [lia|]. intros Hs. pose proof (proj1 (Hwa Hs)) as Hsa.
    rewrite !write_items_dirty, (Ce (proj1 Hs)), (write_items_idem _ _ _ _ _ _ (Ce (proj1 Hs))),
      (De Hsa), (put_item_idem _ _ _ _ _ _ _ (De Hsa)).
    now rewrite (Er' (wext_wok _ _ (Hwa Hs) (put_item_f_ext _ _ _ _ _ _ (Hwa Hs) Ei))).
  - destruct Cc as (Ek & Ee). split; [lia|]. intros Hs.
    pose proof (write_items_mono _ _ _ _ _ _ (Ce Hs)) as Ma. assert (Hsa : 0 <= w_size wa) by lia.
    pose proof (proj1 (put_item_shape _ _ _ _ _ _ _ (De Hsa))) as M2.
    rewrite write_items_dirty, (Ce Hs), (De Hsa). now rewrite (Ee ltac:(lia)).
Qed.

Lemma write_nodes_f_sim torn : forall t w w1 t1, w_failed w = false ->
  write_nodes_f torn w t = (w1, t1) -> sim write_nodes (node_calls t) w t w1 t1.
Proof.
  induction t as [|[p|] l IHl il it nn nb r IHr]; intros w w1 t1 F H; try (pinv H; now apply sim_id).
  cbn [write_nodes_f] in H. unfold sim. cbn [node_calls].
  destruct (write_nodes_f torn w l) as [wa la] eqn:El.
  pose proof (IHl _ _ _ F El) as Ca. unfold sim in Ca.
  pose proof (fun Hs => wext_wok _ _ Hs (write_nodes_f_ext _ _ _ _ _ Hs El)) as Hwa.
  destruct (w_failed wa) eqn:Fa.
  { (* failed in the left subtree *)
    pinv H. rewrite Fa. destruct Ca as (Ck & Cr). split; [lia|]. intros Hs. cbn [write_nodes]. now rewrite (Cr Hs). }
  destruct Ca as (Ck & Ce).
  destruct (write_nodes_f torn wa r) as [wb rb] eqn:Er.
  pose proof (IHr _ _ _ Fa Er) as Cb. unfold sim in Cb.
  destruct (w_failed wb) eqn:Fb.
  { (* failed in the right subtree *)
    pinv H. rewrite Fb. destruct Cb as (Dk & Dr). split; [lia|]. intros Hs. cbn [write_nodes].
    rewrite (Ce (proj1 Hs)), (write_nodes_idem _ _ _ _ _ _ (Ce (proj1 Hs))). now rewrite (Dr (Hwa Hs)). }
  destruct Cb as (Dk & De).
  destruct (fwrite torn wb (w_size wb) (enc_node il (root_loc la) (root_loc rb) nn nb)) as [w3 ok] eqn:E3.
  destruct (fwrite_record _ _ _ _ _ Fb E3) as (S3 & R3). destruct ok; pinv H.
  - destruct R3 as (K3 & F3 & G3). cbn [set_size w_failed w_file w_size w_left]. rewrite F3, G3.
    split; [lia|]. intros Hs. pose proof (write_nodes_mono _ _ _ _ _ _ (Ce Hs)) as Ma.
    cbn [write_nodes]. rewrite (Ce Hs), (De ltac:(lia)). reflexivity.
  - (* the node's call fails *)
    destruct R3 as (K3 & F3 & R3). rewrite F3, S3. split; [lia|]. intros Hs.
    pose proof (proj1 (Hwa Hs)) as Hsa. cbn [write_nodes].
    rewrite (Ce (proj1 Hs)), (De Hsa), (write_nodes_idem _ _ _ _ _ _ (Ce (proj1 Hs))),
      (write_nodes_idem _ _ _ _ _ _ (De Hsa)).
    now rewrite (R3 (wext_wok _ _ (Hwa Hs) (write_nodes_f_ext _ _ _ _ _ (Hwa Hs) Er))).
Qed.

Lemma write_tree_f_sim torn t w w1 t1 : w_failed w = false ->
  write_tree_f torn w t = (w1, t1) -> sim write_tree (item_calls t + node_calls t) w t w1 t1.
Proof.
  intros F H. unfold write_tree_f in H. unfold sim, write_tree.
  destruct (write_items_f torn w t) as [wa ta] eqn:Ei.
  pose proof (write_items_f_sim _ _ _ _ _ F Ei) as Ca. unfold sim in Ca.
  rewrite <- (proj2 (write_items_f_shape _ _ _ _ _ Ei)).
  destruct (w_failed wa) eqn:Fa.
  { pinv H. rewrite Fa. destruct Ca as (Ck & Cr). split; [lia|]. intros Hs. now rewrite (Cr Hs). }
  destruct Ca as (Ck & Ce).
  pose proof (write_nodes_f_sim _ _ _ _ _ Fa H) as Cb. unfold sim in Cb.
  destruct (w_failed w1).
  - destruct Cb as (Dk & Dr). split; [lia|]. intros Hs.
    rewrite (Ce (proj1 Hs)), (located_items_id t1).
    + exact (Dr (wext_wok _ _ Hs (write_items_f_ext _ _ _ _ _ Hs Ei))).
    + apply (proj2 (write_nodes_f_shape _ _ _ _ _ H)). apply (write_items_shape _ _ _ _ _ _ (Ce (proj1 Hs))).
  - destruct Cb as (Dk & De). split; [lia|]. intros Hs. rewrite (Ce Hs). apply De.
    pose proof (write_items_mono _ _ _ _ _ _ (Ce Hs)). lia.
Qed.

Definition colls_calls (cs : colls) : nat :=
  fold_right (fun nc a => item_calls (c_tree (snd nc)) + node_calls (c_tree (snd nc)) + a)%nat O cs.

Lemma write_colls_f_sim torn : forall cs w w1 cs1, w_failed w = false ->
  write_colls_f torn w cs = (w1, cs1) -> sim write_colls (colls_calls cs) w cs w1 cs1.
Proof.
  induction cs as [|[n c] cs IH]; intros w w1 cs1 F H; cbn [write_colls_f] in H.
  - pinv H. now apply sim_id.
  - unfold sim. cbn [colls_calls fold_right snd]. fold (colls_calls cs).
    destruct (write_tree_f torn w (c_tree c)) as [wa t'] eqn:Et.
    pose proof (write_tree_f_sim _ _ _ _ _ F Et) as Ca. unfold sim in Ca.
    destruct (w_failed wa) eqn:Fa.
    { pinv H. rewrite Fa. destruct Ca as (Ck & Cr). split; [lia|]. intros Hs. cbn [write_colls c_tree c_cmp]. now rewrite (Cr Hs). }
    destruct Ca as (Ck & Ce).
    destruct (write_colls_f torn wa cs) as [wb cs2] eqn:Ec. pinv H.
    pose proof (IH _ _ _ Fa Ec) as Cb. unfold sim in Cb.
    destruct (w_failed wb).
    + destruct Cb as (Dk & Dr). split; [lia|]. intros Hs. cbn [write_colls c_tree c_cmp].
      rewrite (Ce (proj1 Hs)), (write_tree_idem _ _ _ _ _ _ (Ce (proj1 Hs))).
      now rewrite (Dr (wext_wok _ _ Hs (write_tree_f_ext _ _ _ _ _ Hs Et))).
    + destruct Cb as (Dk & De). split; [lia|]. intros Hs.
      pose proof (write_tree_mono _ _ _ _ _ _ (Ce Hs)). cbn [write_colls]. rewrite (Ce Hs), De by lia. reflexivity.
Qed.

Lemma flush_fault_sim k torn f size cs f1 s1 cs1 b :
  flush_fault k torn f size cs = (f1, s1, cs1, b) ->
  if b then (k < flush_calls cs)%nat /\
            (0 <= size <= blen f -> flush_bytes f1 s1 cs1 = flush_bytes f size cs)
  else (flush_calls cs <= k)%nat /\ (0 <= size -> flush_bytes f size cs = (f1, s1, cs1)).
Proof.
  intros H. unfold flush_fault in H. change (flush_calls cs) with (colls_calls cs + 1)%nat.
  destruct (write_colls_f torn (mkW f size k false) cs) as [wa ca] eqn:Ec.
  pose proof (write_colls_f_sim _ _ (mkW f size k false) _ _ eq_refl Ec) as Ca. unfold sim in Ca.
  cbn [w_file w_size w_left] in Ca. unfold flush_bytes.
  destruct (w_failed wa) eqn:Fa.
  { qinv H. destruct Ca as (Ck & Cr). split; [lia|]. intros Hs. now rewrite (Cr Hs). }
  destruct Ca as (Ck & Ce).
  destruct (fwrite torn wa (w_size wa) (enc_root (root_map ca) (w_size wa))) as [w2 ok] eqn:E2.
  destruct (fwrite_record _ _ _ _ _ Fa E2) as (S2 & R2). destruct ok; qinv H.
  - destruct R2 as (K2 & _ & ->). split; [lia|]. intros Hs. now rewrite (Ce Hs).
  - destruct R2 as (K2 & _ & R2). split; [lia|]. intros Hs.
    rewrite (Ce (proj1 Hs)), (write_colls_idem _ _ _ _ _ _ (Ce (proj1 Hs))).
    now rewrite (R2 (wext_wok (mkW f size k false) _ Hs (write_colls_f_ext _ _ (mkW f size k false) _ _ Hs Ec))).
Qed.

(* a plan whose call number is not reached is the fault-free Flush.  [0 <= size] is needed
   (flush_fault_none_cex): itemLoc.write's second call goes to size + 16 + len(key), which for a
   negative size is not where the one-call model of flush_bytes puts the value (write_at clamps a
   negative offset to 0). *)
Theorem flush_fault_none k torn f size cs :
  0 <= size ->
  (flush_calls cs <= k)%nat ->
  flush_fault k torn f size cs = (flush_bytes f size cs, false).
Proof.
  intros Hs Hk. destruct (flush_fault k torn f size cs) as [[[f1 s1] cs1] b] eqn:E.
  pose proof (flush_fault_sim _ _ _ _ _ _ _ _ _ E) as C. destruct b.
  - destruct C as (C1 & _). lia.
  - destruct C as (_ & C2). now rewrite (C2 Hs).
Qed.
Print Assumptions flush_fault_none.

Example flush_fault_none_cex :
  let cs : colls := [([], mkColl O (T None E None (mkItem [] [1%N] 0) 1 1 E))] in
  (flush_calls cs <= 10)%nat /\
  flush_fault 10 0 [] (-1) cs <> (flush_bytes [] (-1) cs, false) /\
  (let '(f1, _, _, _) := flush_fault 10 0 [] (-1) cs in
   let '(f2, _, _) := flush_bytes [] (-1) cs in (beq f1 f2, nth 15 f1 0%N, nth 15 f2 0%N)) = (false, 1%N, 0%N).
Proof.
  cbv zeta. split; [vm_compute; lia|]. split; [|vm_compute; reflexivity].
  intros H. vm_compute in H. discriminate H.
Qed.

Theorem flush_fault_fails k torn f size cs f1 s1 cs1 b :
  (k < flush_calls cs)%nat -> flush_fault k torn f size cs = (f1, s1, cs1, b) -> b = true.
Proof.
  intros Hk E. pose proof (flush_fault_sim _ _ _ _ _ _ _ _ _ E) as C. destruct b; [reflexivity|].
  destruct C as (C1 & _). lia.
Qed.
Print Assumptions flush_fault_fails.

Theorem flush_fault_durable k torn f size cs f1 s1 cs1 b :
  0 <= size <= blen f -> flush_fault k torn f size cs = (f1, s1, cs1, b) ->
  agree f f1 size /\ size <= s1 <= blen f1.
Proof.
  intros Hs H. unfold flush_fault in H.
  destruct (write_colls_f torn (mkW f size k false) cs) as [w1 ca] eqn:Ec.
  pose proof (write_colls_f_ext _ _ (mkW f size k false) _ _ Hs Ec) as X1.
  destruct (w_failed w1); [qinv H; exact X1|].
  pose proof (wext_wok (mkW f size k false) _ Hs X1) as Hw1.
  destruct (fwrite torn w1 (w_size w1) (enc_root (root_map ca) (w_size w1))) as [w2 ok] eqn:E2.
  destruct (fwrite_ext _ _ _ _ _ _ Hw1 (conj (Z.le_refl _) (proj2 Hw1)) E2) as (X2 & S2 & B2).
  destruct (wext_trans _ _ _ X1 X2) as (A1 & A2). cbn [w_file w_size] in A1, A2.
  pose proof (blen_nonneg (enc_root (root_map ca) (w_size w1))).
  destruct ok; qinv H; (split; [exact A1|]); [specialize (B2 eq_refl)|]; lia.
Qed.
Print Assumptions flush_fault_durable.

(* Flush only appends, whatever the collections are *)
Lemma flush_bytes_appends f size cs f' size' cs' :
  0 <= size <= blen f -> flush_bytes f size cs = (f', size', cs') ->
  agree f f' size /\ size <= size' <= blen f'.
Proof.
  intros Hs E.
  pose proof (flush_fault_none (flush_calls cs) 0 f size cs (proj1 Hs) (le_n _)) as N. rewrite E in N.
  exact (flush_fault_durable _ _ _ _ _ _ _ _ _ Hs N).
Qed.

Lemma write_tree_f_erase torn t w w1 t1 : write_tree_f torn w t = (w1, t1) -> erase t1 = erase t.
Proof.
  unfold write_tree_f. destruct (write_items_f torn w t) as [wa ta] eqn:Ei.
  apply write_items_f_shape in Ei. destruct Ei as (Ei & _). destruct (w_failed wa).
  - intros H. pinv H. exact Ei.
  - intros H. apply write_nodes_f_shape in H. destruct H as (H & _). congruence.
Qed.

Lemma write_colls_f_contents torn : forall cs w w1 cs1,
  write_colls_f torn w cs = (w1, cs1) ->
  map fst cs1 = map fst cs /\
  map (fun nc => c_cmp (snd nc)) cs1 = map (fun nc => c_cmp (snd nc)) cs /\
  map (fun nc => erase (c_tree (snd nc))) cs1 = map (fun nc => erase (c_tree (snd nc))) cs.
Proof.
  induction cs as [|[n c] cs IH]; intros w w1 cs1 H; cbn [write_colls_f] in H.
  - pinv H. repeat split.
  - destruct (write_tree_f torn w (c_tree c)) as [wa t'] eqn:Et. apply write_tree_f_erase in Et.
    destruct (w_failed wa).
    { pinv H. cbn [map fst snd c_cmp c_tree]. now rewrite Et. }
    destruct (write_colls_f torn wa cs) as [wb cs2] eqn:Ec. apply IH in Ec.
    destruct Ec as (E1 & E2 & E3). pinv H. cbn [map fst snd c_cmp c_tree].
    now rewrite Et, E1, E2, E3.
Qed.

Theorem flush_fault_contents k torn f size cs f1 s1 cs1 b :
  flush_fault k torn f size cs = (f1, s1, cs1, b) ->
  map fst cs1 = map fst cs /\
  map (fun nc => c_cmp (snd nc)) cs1 = map (fun nc => c_cmp (snd nc)) cs /\
  map (fun nc => erase (c_tree (snd nc))) cs1 = map (fun nc => erase (c_tree (snd nc))) cs.
Proof.
  intros H. unfold flush_fault in H.
  destruct (write_colls_f torn (mkW f size k false) cs) as [wa ca] eqn:Ec.
  apply write_colls_f_contents in Ec.
  destruct (w_failed wa); [qinv H; exact Ec|].
  destruct (fwrite torn wa (w_size wa) (enc_root (root_map ca) (w_size wa))) as [w2 ok].
  destruct ok; qinv H; exact Ec.
Qed.
Print Assumptions flush_fault_contents.

(* the retry theorem, for every call number k and every torn length *)
Theorem flush_retry_same k torn f size cs f1 s1 cs1 :
  0 <= size <= blen f ->
  flush_fault k torn f size cs = (f1, s1, cs1, true) ->
  flush_bytes f1 s1 cs1 = flush_bytes f size cs.
Proof.
  intros Hs E. exact (proj2 (flush_fault_sim _ _ _ _ _ _ _ _ _ E) Hs).
Qed.
Print Assumptions flush_retry_same.

Theorem flush_retry_twice k1 t1 k2 t2 f size cs fa sa csa fb sb csb :
  0 <= size <= blen f ->
  flush_fault k1 t1 f size cs = (fa, sa, csa, true) ->
  flush_fault k2 t2 fa sa csa = (fb, sb, csb, true) ->
  flush_bytes fb sb csb = flush_bytes f size cs.
Proof.
  intros Hs E1 E2. destruct (flush_fault_durable _ _ _ _ _ _ _ _ _ Hs E1) as (_ & Hsa).
  assert (Hsa' : 0 <= sa <= blen fa) by lia.
  rewrite (flush_retry_same _ _ _ _ _ _ _ _ Hsa' E2).
  exact (flush_retry_same _ _ _ _ _ _ _ _ Hs E1).
Qed.
Print Assumptions flush_retry_twice.

(* a re-open after the failed Flush sees the previous Flush (C03's side condition: no complete root
   record in the torn bytes).  Treap.size is qualified because the bound variable [size] shadows it. *)
Theorem flush_fault_reopen k torn f size cs f1 s1 cs1 b e0 m0 ts :
  0 <= size <= blen f -> e0 <= size ->
  flush_fault k torn f size cs = (f1, s1, cs1, b) ->
  scan f (blen f) = ScanFound e0 m0 ->
  (forall e', e0 < e' <= blen f1 -> root_at f1 e' = None) ->
  load_all f m0 e0 = Some ts ->
  Forall (fun nt => rep f (snd nt) /\ below (snd nt) e0 /\ (Treap.size (snd nt) <= S (length f1))%nat) ts ->
  decode_store f1 = OpOk e0 ts.
Proof.
  intros Hs He E Hscan Hno Hload Hts.
  destruct (flush_fault_durable _ _ _ _ _ _ _ _ _ Hs E) as (Hag & Hle).
  apply (crash_decode_store f f1 e0 m0 ts); auto.
  - eapply agree_mono; eauto.
  - lia.
Qed.
Print Assumptions flush_fault_reopen.

Example ex_fault_retry :
  let it k p := mkItem [k] [k; k; k] p in
  let t0 := insert cmp_bytes (insert cmp_bytes (insert cmp_bytes E (it 97%N 5)) (it 98%N 9)) (it 99%N 2) in
  let cs0 : colls := [([120%N], mkColl O t0)] in
  forallb (fun k => forallb (fun torn =>
     let '(f1, s1, cs1, failed) := flush_fault k torn [] 0 cs0 in
     let '(f2, s2, _) := flush_bytes f1 s1 cs1 in
     let '(f3, s3, _) := flush_bytes [] 0 cs0 in
     failed && beq f2 f3 && (s2 =? s3)) [0; 1; 7; 30]%nat) (seq 0 (flush_calls cs0)) = true.
Proof.
  (* an instance of flush_fault_fails and flush_retry_same: nothing is run *)
  intros it t0 cs0. apply forallb_forall. intros k Hk. apply in_seq in Hk.
  apply forallb_forall. intros torn _.
  destruct (flush_fault k torn [] 0 cs0) as [[[f1 s1] cs1] b] eqn:E.
  rewrite (flush_fault_fails _ _ _ _ _ _ _ _ _ (proj2 Hk) E) in E |- *.
  rewrite (flush_retry_same k torn [] 0 cs0 _ _ _ (conj (Z.le_refl 0) (Z.le_refl 0)) E).
  destruct (flush_bytes [] 0 cs0) as [[f3 s3] c3].
  cbn [andb]. now rewrite beq_refl, Z.eqb_refl.
Qed.

(* DiskProofs.stored in a store state *)
Definition wrep (w : wst) (t : tree) : Prop := stored (w_file w) (w_size w) t.

Lemma wrep_ext w w' t : wext w w' -> wrep w t -> wrep w' t.
Proof. intros (A1 & A2) R. apply (stored_stable _ _ _ _ _ R A1). lia. Qed.

Lemma item_rep_wext w w' il it : wext w w' -> item_rep (w_file w) il it -> loc_below il (w_size w) ->
  item_rep (w_file w') il it /\ loc_below il (w_size w').
Proof.
  intros (A1 & A2) Hit Hib.
  split; [exact (item_rep_stable _ _ _ _ _ Hit Hib A1)|apply (loc_below_mono _ _ _ Hib); lia].
Qed.

(* an unpersisted node over subtrees stored in earlier states; w0 is any earlier state that holds
   the item, if it has a location *)
Lemma dirty_node w0 wa wb w' la rb il it nn nb :
  wext w0 w' -> wext wa w' -> wext wb w' ->
  item_rep (w_file w0) il it -> loc_below il (w_size w0) -> wrep wa la -> wrep wb rb ->
  wrep w' (T None la il it nn nb rb).
Proof.
  intros X0 Xa Xb Hit Hib Ra Rb. apply stored_dirty.
  split; [exact (wrep_ext _ _ _ Xa Ra)|]. split; [exact (wrep_ext _ _ _ Xb Rb)|].
  exact (item_rep_wext _ _ _ _ X0 Hit Hib).
Qed.

(* the item step of write_items_f: DiskProofs.put_item when both calls succeed, nothing recorded
   when one fails *)
Lemma put_item_f_post torn w il it w2 il' :
  wok w -> w_failed w = false -> item_ok it -> item_rep (w_file w) il it -> loc_below il (w_size w) ->
  match il with Some _ => (w, il) | None => write_item_f torn w it end = (w2, il') ->
  wext w w2 /\ item_rep (w_file w2) il' it /\ loc_below il' (w_size w2).
Proof.
  intros Hw F Hok Hit Hib H. split; [exact (put_item_f_ext _ _ _ _ _ _ Hw H)|].
  destruct il as [q|]; [pinv H; split; assumption|].
  destruct w as [f s k fl]. cbn [w_failed] in F. subst fl.
  destruct (write_item_f_spec _ _ _ _ _ _ _ H) as [(k' & F & _ & -> & -> & HF)|(_ & _ & -> & _)].
  - rewrite (HF (proj1 Hw)). exact (proj2 (put_item_spec f s None it _ _ _ Hw Hok Hit Hib eq_refl)).
  - split; [intros q Hq; discriminate Hq|exact I].
Qed.

Lemma write_items_f_post torn : forall t w w1 t1,
  wok w -> w_failed w = false -> wrep w t -> tree_ok t -> write_items_f torn w t = (w1, t1) -> wrep w1 t1.
Proof.
  induction t as [|[p|] l IHl il it nn nb r IHr]; intros w w1 t1 Hw F Hrep Hok H;
    try (pinv H; exact Hrep).
  cbn [write_items_f] in H.
  destruct (proj1 (stored_dirty _ _ _ _ _ _ _ _) Hrep) as (Sl & Sr & Hit & Hib).
  destruct Hok as (Hiok & _ & _ & Hlok & Hrok).
  destruct (write_items_f torn w l) as [wa la] eqn:El.
  pose proof (write_items_f_ext _ _ _ _ _ Hw El) as Xa. pose proof (wext_wok _ _ Hw Xa) as Hwa.
  pose proof (IHl _ _ _ Hw F Sl Hlok El) as Ra.
  destruct (w_failed wa) eqn:Fa.
  { pinv H. exact (dirty_node w wa w _ _ _ _ _ _ _ Xa (wext_refl _ Hwa) Xa Hit Hib Ra Sr). }
  destruct (match il with Some _ => (wa, il) | None => write_item_f torn wa it end) as [w2 il'] eqn:Ei.
  destruct (item_rep_wext _ _ _ _ Xa Hit Hib) as (Hita & Hiba).
  destruct (put_item_f_post _ _ _ _ _ _ Hwa Fa Hiok Hita Hiba Ei) as (X2 & Hit2 & Hib2).
  pose proof (wext_wok _ _ Hwa X2) as Hw2.
  destruct (w_failed w2) eqn:F2.
  { pinv H. exact (dirty_node w2 wa w _ _ _ _ _ _ _ (wext_refl _ Hw2) X2 (wext_trans _ _ _ Xa X2) Hit2 Hib2 Ra Sr). }
  destruct (write_items_f torn w2 r) as [wb rb] eqn:Er. pinv H.
  pose proof (write_items_f_ext _ _ _ _ _ Hw2 Er) as Xb.
  pose proof (IHr _ _ _ Hw2 F2 (wrep_ext _ _ _ (wext_trans _ _ _ Xa X2) Sr) Hrok Er) as Rb.
  exact (dirty_node w2 wa wb _ _ _ _ _ _ _ Xb (wext_trans _ _ _ X2 Xb) (wext_refl _ (wext_wok _ _ Hw2 Xb)) Hit2 Hib2 Ra Rb).
Qed.

(* a run that did not fail is the fault-free run, specified in DiskProofs; one that failed leaves
   an unpersisted node over what its parts left *)
Lemma write_nodes_f_post torn : forall t w w1 t1,
  wok w -> w_failed w = false -> wrep w t -> located t -> tree_ok t ->
  write_nodes_f torn w t = (w1, t1) -> w_size w1 < two63 -> wrep w1 t1.
Proof.
  induction t as [|[p|] l IHl il it nn nb r IHr]; intros w w1 t1 Hw F Hrep Hloc Hok H H63;
    try (pinv H; exact Hrep).
  destruct (w_failed w1) eqn:F1.
  2:{ pose proof (write_nodes_f_sim _ _ _ _ _ F H) as C. unfold sim in C. rewrite F1 in C.
      exact (proj1 (proj2 (write_nodes_spec _ _ _ _ _ _ Hrep Hloc Hw Hok (proj2 C (proj1 Hw)) H63))). }
  cbn [write_nodes_f] in H.
  destruct (proj1 (stored_dirty _ _ _ _ _ _ _ _) Hrep) as (Sl & Sr & Hit & Hib).
  destruct Hloc as (_ & Hlloc & Hrloc). destruct Hok as (_ & _ & _ & Hlok & Hrok).
  destruct (write_nodes_f torn w l) as [wa la] eqn:El.
  pose proof (write_nodes_f_ext _ _ _ _ _ Hw El) as Xa. pose proof (wext_wok _ _ Hw Xa) as Hwa.
  pose proof (IHl _ _ _ Hw F Sl Hlloc Hlok El) as Ra.
  destruct (w_failed wa) eqn:Fa.
  { pinv H. exact (dirty_node w wa w _ _ _ _ _ _ _ Xa (wext_refl _ Hwa) Xa Hit Hib (Ra H63) Sr). }
  destruct (write_nodes_f torn wa r) as [wb rb] eqn:Er.
  pose proof (write_nodes_f_ext _ _ _ _ _ Hwa Er) as Xb. pose proof (wext_wok _ _ Hwa Xb) as Hwb.
  pose proof (IHr _ _ _ Hwa Fa (wrep_ext _ _ _ Xa Sr) Hrloc Hrok Er) as Rb.
  pose proof (wext_trans _ _ _ Xa Xb) as Xab. pose proof (proj1 (proj2 Xb)) as Sab.
  destruct (w_failed wb) eqn:Fb.
  { pinv H. exact (dirty_node w wa wb _ _ _ _ _ _ _ Xab Xb (wext_refl _ Hwb) Hit Hib (Ra ltac:(lia)) (Rb H63)). }
  destruct (fwrite torn wb (w_size wb) (enc_node il (root_loc la) (root_loc rb) nn nb)) as [w3 ok] eqn:E3.
  destruct (fwrite_ext _ _ _ _ _ _ Hwb (conj (Z.le_refl _) (proj2 Hwb)) E3) as (X3 & S3 & _).
  destruct (fwrite_record _ _ _ _ _ Fb E3) as (_ & R3).
  destruct ok; pinv H; [cbn [set_size w_failed] in F1; destruct R3 as (_ & R3 & _); congruence|].
  exact (dirty_node w wa wb _ _ _ _ _ _ _ (wext_trans _ _ _ Xab X3) (wext_trans _ _ _ Xb X3) X3 Hit Hib
           (Ra ltac:(lia)) (Rb ltac:(lia))).
Qed.

Lemma write_tree_f_post torn t w w1 t1 :
  wok w -> w_failed w = false -> wrep w t -> tree_ok t ->
  write_tree_f torn w t = (w1, t1) -> w_size w1 < two63 -> wrep w1 t1.
Proof.
  intros Hw F Hrep Hok H H63. unfold write_tree_f in H.
  destruct (write_items_f torn w t) as [wa ta] eqn:Ei.
  pose proof (write_items_f_post _ _ _ _ _ Hw F Hrep Hok Ei) as Ra.
  pose proof (write_items_f_sim _ _ _ _ _ F Ei) as Ca. unfold sim in Ca.
  destruct (w_failed wa) eqn:Fa; [pinv H; exact Ra|]. destruct Ca as (_ & Ce).
  exact (write_nodes_f_post _ _ _ _ _ (wext_wok _ _ Hw (write_items_f_ext _ _ _ _ _ Hw Ei)) Fa Ra
           (proj1 (proj2 (write_items_shape _ _ _ _ _ _ (Ce (proj1 Hw)))))
           (erase_eq_tree_ok _ _ (proj1 (write_items_f_shape _ _ _ _ _ Ei)) Hok) H H63).
Qed.

Lemma coll_ok_ext w w' nc : wext w w' -> coll_ok (w_file w) (w_size w) nc -> coll_ok (w_file w') (w_size w') nc.
Proof. intros (A1 & A2) H. eapply coll_ok_stable; eauto. lia. Qed.

Lemma write_colls_f_post torn : forall cs w w1 cs1,
  wok w -> w_failed w = false -> Forall (coll_ok (w_file w) (w_size w)) cs ->
  write_colls_f torn w cs = (w1, cs1) -> w_size w1 < two63 ->
  Forall (coll_ok (w_file w1) (w_size w1)) cs1.
Proof.
  induction cs as [|[n c] cs IH]; intros w w1 cs1 Hw F Hok H H63; cbn [write_colls_f] in H.
  - pinv H. constructor.
  - inversion Hok as [|? ? (C1 & C2 & C3 & C4) Hcs]; subst. cbn [fst snd] in *.
    destruct (write_tree_f torn w (c_tree c)) as [wa t'] eqn:Et.
    pose proof (write_tree_f_ext _ _ _ _ _ Hw Et) as Xa. pose proof (wext_wok _ _ Hw Xa) as Hwa.
    assert (Hcs' : Forall (coll_ok (w_file wa) (w_size wa)) cs).
    { eapply Forall_impl; [|exact Hcs]. intros nc. exact (coll_ok_ext _ _ _ Xa). }
    assert (Hc : w_size wa < two63 -> coll_ok (w_file wa) (w_size wa) (n, mkColl (c_cmp c) t')).
    { intros B. destruct (write_tree_f_post _ _ _ _ _ Hw F (conj C2 C3) C4 Et B) as (R1 & R2).
      repeat split; auto. eapply erase_eq_tree_ok; [|exact C4]. eapply write_tree_f_erase; eauto. }
    destruct (w_failed wa) eqn:Fa.
    { pinv H. constructor; [exact (Hc H63)|exact Hcs']. }
    destruct (write_colls_f torn wa cs) as [wb cs2] eqn:Ec. pinv H.
    pose proof (write_colls_f_ext _ _ _ _ _ Hwa Ec) as Xb.
    constructor; [|exact (IH _ _ _ Hwa Fa Hcs' Ec H63)].
    apply (coll_ok_ext wa); [exact Xb|]. apply Hc. destruct Xb as (_ & X). lia.
Qed.

(* the in-memory store is still represented by the file after the failed Flush *)
Theorem flush_fault_coll_ok k torn f size cs f1 s1 cs1 b :
  0 <= size <= blen f -> Forall (coll_ok f size) cs ->
  flush_fault k torn f size cs = (f1, s1, cs1, b) ->
  s1 < two63 ->
  Forall (coll_ok f1 s1) cs1.
Proof.
  intros Hs Hok H H63. unfold flush_fault in H.
  destruct (write_colls_f torn (mkW f size k false) cs) as [wa ca] eqn:Ec.
  pose proof (write_colls_f_ext _ _ (mkW f size k false) _ _ Hs Ec) as Xa.
  pose proof (wext_wok (mkW f size k false) _ Hs Xa) as Hwa.
  pose proof (write_colls_f_post _ _ (mkW f size k false) _ _ Hs eq_refl Hok Ec) as P.
  destruct (w_failed wa); [qinv H; exact (P H63)|].
  set (r := enc_root (root_map ca) (w_size wa)) in *. pose proof (blen_nonneg r) as Hr.
  destruct (fwrite torn wa (w_size wa) r) as [w2 ok] eqn:E2.
  destruct (fwrite_ext _ _ _ _ _ _ Hwa (conj (Z.le_refl _) (proj2 Hwa)) E2) as ((A1 & A2) & S2 & B2).
  destruct ok; qinv H; [specialize (B2 eq_refl)|];
    (eapply Forall_impl; [|apply P; lia]); intros nc Hnc;
    (eapply coll_ok_stable; [exact Hnc|exact A1|lia]).
Qed.
Print Assumptions flush_fault_coll_ok.
