(* LazySeqProofs.v — proofs about LazySeq.v: the ReadAt calls of whole sequences of calls (C19, "whatever is cached").
   vreads is taken one touch at a time (vstep_reads / vstep_mem); a call is the list of its touches and the tree it leaves
   (sstep_eq), so that what a call reads is a statement about a list of touches. *)
From GK Require Import Base Treap TreapSpec Codec CodecProofs Disk DiskProofs Lazy LazyProofs LazyVisit LazyMut LazyMutProofs LazySeq.
From Coq Require Import Lia ZArith NArith List Bool.
Import ListNotations.
Open Scope Z_scope.

Definition vstep_mem (m : mem) (x : vtouch) : mem :=
  match x with
  | VN p => match mem_find (poff p) m with Some _ => m | None => (poff p, false) :: m end
  | VI q it wv =>
    match mem_find (poff q) m with
    | Some hasv => if negb wv || hasv then m else (poff q, true) :: m
    | None => (poff q, wv) :: m
    end
  end.

Definition vstep_reads (m : mem) (x : vtouch) : list rd :=
  match x with
  | VN p => match mem_find (poff p) m with Some _ => [] | None => node_reads p end
  | VI q it wv =>
    match mem_find (poff q) m with
    | Some hasv => if negb wv || hasv then [] else item_reads q it true
    | None => item_reads q it wv
    end
  end.

Lemma vreads_cons m x r :
  vreads m (x :: r) = (vstep_reads m x ++ fst (vreads (vstep_mem m x) r), snd (vreads (vstep_mem m x) r)).
Proof.
  destruct x as [p|q it wv]; cbn [vreads vstep_mem vstep_reads].
  - destruct (mem_find (poff p) m); destruct (vreads _ r); reflexivity.
  - destruct (mem_find (poff q) m) as [hasv|]; [destruct (negb wv || hasv)|]; destruct (vreads _ r); reflexivity.
Qed.

Lemma vreads_fst_cons m x r : fst (vreads m (x :: r)) = vstep_reads m x ++ fst (vreads (vstep_mem m x) r).
Proof. rewrite vreads_cons. reflexivity. Qed.

Lemma vreads_snd_cons m x r : snd (vreads m (x :: r)) = snd (vreads (vstep_mem m x) r).
Proof. rewrite vreads_cons. reflexivity. Qed.

Lemma vreads_app : forall a m b,
  vreads m (a ++ b) = (fst (vreads m a) ++ fst (vreads (snd (vreads m a)) b), snd (vreads (snd (vreads m a)) b)).
Proof.
  induction a as [|x a IH]; intros m b; cbn [app].
  - cbn [vreads fst snd app]. destruct (vreads m b); reflexivity.
  - rewrite !vreads_cons. cbn [fst snd]. rewrite IH. cbn [fst snd]. rewrite app_assoc. reflexivity.
Qed.

Definition voff (x : vtouch) : Z := match x with VN p => poff p | VI q _ _ => poff q end.
Definition vwv (x : vtouch) : bool := match x with VN _ => false | VI _ _ wv => wv end.

Lemma mem_find_cons_ne o a b m : o <> a -> mem_find o ((a, b) :: m) = mem_find o m.
Proof. intro H. cbn [mem_find]. apply Z.eqb_neq in H. rewrite H. reflexivity. Qed.

Lemma mem_find_cons_eq o b m : mem_find o ((o, b) :: m) = Some b.
Proof. cbn [mem_find]. rewrite Z.eqb_refl. reflexivity. Qed.

Lemma mem_find_app o : forall a m,
  mem_find o (a ++ m) = match mem_find o a with Some b => Some b | None => mem_find o m end.
Proof.
  induction a as [|[o' b] a IH]; intro m; [reflexivity|].
  cbn [app mem_find]. destruct (o =? o'); [reflexivity|apply IH].
Qed.

Lemma mem_find_spec o : forall F,
  match mem_find o F with Some b => In (o, b) F | None => forall b, ~ In (o, b) F end.
Proof.
  induction F as [|[o' b'] F IH]; [intros b []|].
  cbn [mem_find]. destruct (o =? o') eqn:E.
  - apply Z.eqb_eq in E. subst o'. left. reflexivity.
  - destruct (mem_find o F) as [b|]; [right; exact IH|].
    intros b [H|H]; [|exact (IH b H)]. inversion H; subst. rewrite Z.eqb_refl in E. discriminate.
Qed.

Lemma mem_find_vstep o m x : o <> voff x -> mem_find o (vstep_mem m x) = mem_find o m.
Proof.
  intro H. destruct x as [p|q it wv]; cbn [vstep_mem voff] in *.
  - destruct (mem_find (poff p) m); [reflexivity|apply mem_find_cons_ne; exact H].
  - destruct (mem_find (poff q) m) as [hasv|]; [destruct (negb wv || hasv)|];
      [reflexivity|apply mem_find_cons_ne; exact H|apply mem_find_cons_ne; exact H].
Qed.

Lemma vstep_mem_loaded m x : mem_find (voff x) (vstep_mem m x) <> None.
Proof.
  destruct x as [p|q it wv]; cbn [vstep_mem voff].
  - destruct (mem_find (poff p) m) eqn:E; [|rewrite mem_find_cons_eq]; congruence.
  - destruct (mem_find (poff q) m) as [hasv|] eqn:E; [destruct (negb wv || hasv)|];
      rewrite ?mem_find_cons_eq; congruence.
Qed.

Lemma vreads_frame : forall ts m o, ~ In o (map voff ts) -> mem_find o (snd (vreads m ts)) = mem_find o m.
Proof.
  induction ts as [|x r IH]; intros m o H; [reflexivity|].
  rewrite vreads_snd_cons, IH by (intro Hi; apply H; right; exact Hi).
  apply mem_find_vstep. intro e. apply H. left. symmetry. exact e.
Qed.

Lemma vreads_loaded : forall ts m o, mem_find o m <> None \/ In o (map voff ts) -> mem_find o (snd (vreads m ts)) <> None.
Proof.
  induction ts as [|x r IH]; intros m o H; [destruct H as [H|[]]; exact H|].
  rewrite vreads_snd_cons. apply IH.
  destruct (Z.eq_dec o (voff x)) as [->|Hne]; [left; apply vstep_mem_loaded|].
  rewrite mem_find_vstep by exact Hne. destruct H as [H|[e|H]]; [left; exact H|congruence|right; exact H].
Qed.

Lemma mem_find_seen o m : seen o (map fst m) = match mem_find o m with Some _ => true | None => false end.
Proof.
  induction m as [|[o' b] r IH]; [reflexivity|].
  cbn [map fst mem_find]. unfold seen in *. cbn [existsb]. destruct (o =? o'); [reflexivity|exact IH].
Qed.

Lemma vreads_of_touch : forall ts m,
  fst (vreads m (map of_touch ts)) = reads_of (map fst m) ts.
Proof.
  induction ts as [|x r IH]; intro m; [reflexivity|].
  cbn [map]. rewrite vreads_fst_cons.
  destruct x as [p|q it]; cbn [of_touch vstep_reads vstep_mem reads_of]; rewrite mem_find_seen.
  - destruct (mem_find (poff p) m); [apply IH|]. rewrite IH. reflexivity.
  - destruct (mem_find (poff q) m) as [hasv|]; cbn [negb orb]; [apply IH|]. rewrite IH. reflexivity.
Qed.

Definition key_only_op (o : sop) : bool :=
  match o with SGet _ wv => negb wv | SMin wv => negb wv | SMax wv => negb wv | SSet _ _ _ => true | SDel _ => true end.

(* touches of records of t0 read node records, item headers, keys and -- when b allows a value to be asked for -- values
   of t0 *)
Definition vt_ok (t0 : tree) (b : bool) (x : vtouch) : Prop :=
  match x with
  | VN p => In p (node_locs t0)
  | VI q it wv => In (q, it) (item_locs t0) /\ (wv = true -> b = true)
  end.

Lemma vstep_reads_vk t0 b m x : vt_ok t0 b x -> Forall (vk b t0) (vstep_reads m x).
Proof.
  destruct x as [p|q it wv]; cbn [vt_ok vstep_reads].
  - intro Hp. destruct (mem_find (poff p) m); [constructor|].
    apply vk_key_only. now apply key_only_node_in.
  - intros [Hin Hb]. destruct (mem_find (poff q) m) as [hasv|].
    + destruct (negb wv || hasv) eqn:E; [constructor|].
      apply vk_item_value; [exact Hin|]. apply Hb. destruct wv; [reflexivity|discriminate].
    + destruct wv; [apply vk_item_value; auto|]. apply vk_key_only. now apply key_only_item_in.
Qed.

Lemma vreads_vk t0 b : forall ts m, Forall (vt_ok t0 b) ts -> Forall (vk b t0) (fst (vreads m ts)).
Proof.
  induction ts as [|x r IH]; intros m H; [constructor|].
  inversion H as [|? ? Hx Hr]; subst. rewrite vreads_fst_cons.
  apply Forall_app. split; [now apply vstep_reads_vk|now apply IH].
Qed.

Lemma of_touch_ok t0 b ts :
  Forall (touch_ok (NPof t0) (IPof t0)) ts -> Forall (vt_ok t0 b) (map of_touch ts).
Proof.
  intro H. induction H as [|x r Hx Hr IH]; cbn [map]; constructor; [|exact IH].
  destruct x as [p|q it]; cbn [of_touch vt_ok touch_ok] in *; [exact Hx|]. split; [exact Hx|discriminate].
Qed.

Lemma vn_ok t0 b nl : oN (NPof t0) nl -> Forall (vt_ok t0 b) (match nl with Some p => [VN p] | None => [] end).
Proof. intro H. destruct nl as [p|]; constructor; [exact H|constructor]. Qed.

Lemma vi_ok t0 b il it wv : oI (IPof t0) il it -> (wv = true -> b = true) ->
  Forall (vt_ok t0 b) (match il with Some q => [VI q it wv] | None => [] end).
Proof. intros H Hb. destruct il as [q|]; constructor; [split; [exact H|exact Hb]|constructor]. Qed.

Lemma getv_t_ok t0 b cmp k wv : (wv = true -> b = true) ->
  forall t, locs_sub (NPof t0) (IPof t0) t -> Forall (vt_ok t0 b) (getv_t cmp t k wv).
Proof.
  intros Hb. induction t as [|nl l IHl il it nn nb r IHr]; intro H; [constructor|].
  apply locs_sub_T in H. destruct H as (Hn & Hi & Hl & Hr).
  cbn [getv_t]. rewrite !Forall_app. split; [apply vn_ok; exact Hn|].
  split; [apply vi_ok; [exact Hi|discriminate]|].
  destruct (cmp k (ikey it)); auto.
  destruct wv; [apply vi_ok; [exact Hi|exact Hb]|constructor].
Qed.

Lemma walk_t_ok t0 b left wv : (wv = true -> b = true) ->
  forall t, locs_sub (NPof t0) (IPof t0) t -> Forall (vt_ok t0 b) (walk_t left wv t).
Proof.
  intros Hb. induction t as [|nl l IHl il it nn nb r IHr]; intro H; [constructor|].
  apply locs_sub_T in H. destruct H as (Hn & Hi & Hl & Hr).
  pose proof (vi_ok t0 b il it wv Hi Hb) as Hhere.
  cbn [walk_t]. apply Forall_app. split; [apply vn_ok; exact Hn|].
  destruct left; [destruct l|destruct r]; auto.
Qed.

Definition touches (cmp : bytes -> bytes -> comparison) (t : tree) (o : sop) : list vtouch :=
  match o with
  | SGet k wv => getv_t cmp t k wv
  | SMin wv => walk_t true wv t
  | SMax wv => walk_t false wv t
  | SSet k v prio => map of_touch (set_touches cmp t k (Some v) prio)
  | SDel k => map of_touch (del_touches cmp t k)
  end.

Definition after (cmp : bytes -> bytes -> comparison) (t : tree) (o : sop) : tree :=
  match o with
  | SSet k v prio => match set_item cmp t k (Some v) prio with Some t' => t' | None => t end
  | SDel k => fst (delete cmp t k)
  | _ => t
  end.

Lemma sstep_eq cmp t m o :
  sstep cmp t m o = (fst (vreads m (touches cmp t o)), after cmp t o, snd (vreads m (touches cmp t o))).
Proof. destruct o; cbn [sstep touches after]; destruct (vreads m _); reflexivity. Qed.

Lemma srun_reads_cons cmp t m o r :
  srun_reads cmp t m (o :: r) =
  fst (vreads m (touches cmp t o)) :: srun_reads cmp (after cmp t o) (snd (vreads m (touches cmp t o))) r.
Proof. cbn [srun_reads]. rewrite sstep_eq. reflexivity. Qed.

Lemma touches_ok cmp t0 t o : locs_sub (NPof t0) (IPof t0) t ->
  Forall (vt_ok t0 (negb (key_only_op o))) (touches cmp t o).
Proof.
  intro H. destruct o as [k wv|wv|wv|k v prio|k]; cbn [touches key_only_op]; rewrite ?negb_involutive.
  - apply getv_t_ok; auto.
  - apply walk_t_ok; auto.
  - apply walk_t_ok; auto.
  - apply of_touch_ok. apply (set_ok _ _ cmp t k v prio H).
  - apply of_touch_ok. apply (del_ok _ _ cmp t k H).
Qed.

Lemma after_locs NP IP cmp t o : locs_sub NP IP t -> locs_sub NP IP (after cmp t o).
Proof.
  intro H. destruct o as [k wv|wv|wv|k v prio|k]; cbn [after]; try exact H.
  - apply (set_ok _ _ cmp t k v prio H).
  - apply (del_ok _ _ cmp t k H).
Qed.

Lemma seq_gen cmp t0 : forall ops t m, locs_sub (NPof t0) (IPof t0) t ->
  Forall2 (fun o rs => Forall (vk (negb (key_only_op o)) t0) rs) ops (srun_reads cmp t m ops).
Proof.
  induction ops as [|o r IH]; intros t m H; [constructor|].
  rewrite srun_reads_cons. constructor.
  - apply vreads_vk. apply touches_ok. exact H.
  - apply IH. apply after_locs. exact H.
Qed.

(* read lists classified call by call (kop: the calls that ask for no value) *)
Lemma runs_key_only {O} (kop : O -> bool) t0 ops rss :
  Forall2 (fun o rs => Forall (vk (negb (kop o)) t0) rs) ops rss -> forallb kop ops = true ->
  Forall (Forall (key_only t0)) rss.
Proof.
  intros H Hk. refine (Forall2_Forall_r _ (fun o => kop o = true) _ _ _ _ H _).
  - intros o rs Hrs Ho. rewrite Ho in Hrs. eapply Forall_impl; [|exact Hrs]. exact (vk_false t0).
  - apply Forall_forall. apply forallb_forall. exact Hk.
Qed.

Lemma runs_any {O} (kop : O -> bool) t0 ops rss :
  Forall2 (fun o rs => Forall (vk (negb (kop o)) t0) rs) ops rss ->
  Forall (Forall (fun r => in_node t0 r \/ in_keypart t0 r \/ in_value t0 r)) rss.
Proof.
  intro H. refine (Forall2_Forall_r _ (fun _ => True) _ _ _ _ H _).
  - intros o rs Hrs _. eapply Forall_impl; [|exact Hrs]. intro r. apply vk_any.
  - apply Forall_forall. intros o _. exact I.
Qed.

Lemma runs_never_value f t0 rss : rep f t0 -> records_disjoint t0 ->
  Forall (Forall (key_only t0)) rss ->
  Forall (Forall (fun r => forall q it, In (q, it) (item_locs t0) -> rd_disjoint r (value_range q it))) rss.
Proof.
  intros Hrep Hd H. eapply Forall_impl; [|exact H].
  intros rs Hrs. eapply Forall_impl; [|exact Hrs]. intro r. apply (key_only_never_value f); assumption.
Qed.

Theorem seq_key_only : forall cmp t0 ops m,
  forallb key_only_op ops = true ->
  Forall (Forall (fun r => in_node t0 r \/ in_keypart t0 r)) (srun_reads cmp t0 m ops).
Proof.
  intros cmp t0 ops m Hk. apply (runs_key_only key_only_op t0 ops); [|exact Hk].
  apply seq_gen. apply locs_sub_self.
Qed.
Print Assumptions seq_key_only.

Theorem seq_any : forall cmp t0 ops m,
  Forall (Forall (fun r => in_node t0 r \/ in_keypart t0 r \/ in_value t0 r)) (srun_reads cmp t0 m ops).
Proof. intros cmp t0 ops m. apply (runs_any key_only_op t0 ops). apply seq_gen. apply locs_sub_self. Qed.
Print Assumptions seq_any.

Theorem seq_never_reads_values : forall cmp f t0 ops m,
  rep f t0 -> records_disjoint t0 -> forallb key_only_op ops = true ->
  Forall (Forall (fun r => forall q it, In (q, it) (item_locs t0) -> rd_disjoint r (value_range q it))) (srun_reads cmp t0 m ops).
Proof.
  intros cmp f t0 ops m Hrep Hd Hk. apply (runs_never_value f); [exact Hrep|exact Hd|].
  apply seq_key_only. exact Hk.
Qed.
Print Assumptions seq_never_reads_values.

Lemma vreads_nothing : forall ts m,
  Forall (fun x => vwv x = false /\ mem_find (voff x) m <> None) ts -> vreads m ts = ([], m).
Proof.
  induction ts as [|x r IH]; intros m H; [reflexivity|].
  inversion H as [|? ? [Hw Hm] Hr]; subst.
  destruct x as [p|q it wv]; cbn [vreads voff vwv] in *.
  - destruct (mem_find (poff p) m); [now apply IH|congruence].
  - subst wv. destruct (mem_find (poff q) m) as [hasv|]; [|congruence]. cbn [negb orb]. now apply IH.
Qed.

Lemma vreads_again ts m : Forall (fun x => vwv x = false) ts ->
  vreads (snd (vreads m ts)) ts = ([], snd (vreads m ts)).
Proof.
  intro H. apply vreads_nothing. rewrite Forall_forall in *. intros x Hx.
  split; [now apply H|]. apply vreads_loaded. right. apply in_map. exact Hx.
Qed.

Lemma getv_t_false cmp k : forall t, Forall (fun x => vwv x = false) (getv_t cmp t k false).
Proof.
  induction t as [|nl l IHl il it nn nb r IHr]; [constructor|].
  cbn [getv_t]. rewrite !Forall_app. split; [destruct nl; repeat constructor|].
  split; [destruct il; repeat constructor|].
  destruct (cmp k (ikey it)); [constructor|exact IHl|exact IHr].
Qed.

Theorem lookup_twice_reads_nothing : forall cmp t m k,
  exists r1, srun_reads cmp t m [SGet k false; SGet k false] = [r1; []].
Proof.
  intros cmp t m k. rewrite !srun_reads_cons. cbn [touches after].
  rewrite (vreads_again _ m (getv_t_false cmp k t)). eexists. reflexivity.
Qed.
Print Assumptions lookup_twice_reads_nothing.

Theorem first_call_is_lazymut : forall cmp t k v prio,
  srun_reads cmp t [] [SSet k v prio] = [set_treads cmp t k (Some v) prio] /\
  srun_reads cmp t [] [SDel k] = [del_treads cmp t k].
Proof.
  intros cmp t k v prio. rewrite !srun_reads_cons. cbn [touches]. rewrite !vreads_of_touch. split; reflexivity.
Qed.
Print Assumptions first_call_is_lazymut.

Theorem seq_reads_file_spec : forall cmp f t b ops,
  rep f t -> persisted t -> below t b -> (Treap.size t <= S (length f))%nat ->
  seq_reads_file cmp f (root_loc t) b ops = Some (srun_reads cmp t [] ops).
Proof.
  intros cmp f t b ops Hrep Hper Hb Hs. unfold seq_reads_file.
  rewrite (load_rep_file f t b Hrep Hper Hb Hs). reflexivity.
Qed.
Print Assumptions seq_reads_file_spec.

Definition ex_tree : tree :=
  T (Some (mkPloc 200 52))
    (T (Some (mkPloc 100 52)) E (Some (mkPloc 0 18)) (mkItem [97%N] [1%N] 3) 1 2 E)
    (Some (mkPloc 30 18)) (mkItem [98%N] [2%N] 9) 2 4 E.

Example ex_seq : exists t, persisted t /\
  exists r1 r3 r4, srun_reads cmp_bytes t [] [SGet [97%N] true; SGet [97%N] false; SSet [99%N] [1%N] 5; SMin false] = [r1; []; r3; r4] /\ r1 <> [].
Proof.
  exists ex_tree. split.
  - cbn [ex_tree persisted]. repeat split; discriminate.
  - eexists. eexists. eexists. split; [vm_compute; reflexivity|discriminate].
Qed.
Print Assumptions ex_seq.

Example ex_seq_values :
  srun_reads cmp_bytes ex_tree [] [SGet [97%N] true; SGet [97%N] false; SSet [99%N] [1%N] 5; SMin false] =
  [[Rd 200 52; Rd 30 16; Rd 46 1; Rd 100 52; Rd 0 16; Rd 16 1; Rd 0 16; Rd 16 1; Rd 17 1]; []; []; []].
Proof. vm_compute. reflexivity. Qed.

Print Assumptions vreads_of_touch.
