(* Why snapshots stay readable: the file only grows.

   gkvlite's Snapshot() is a read-only store sharing the file with the original; it holds the
   trees the original had at that moment and loads their records lazily from the file.  That is
   safe because the original only ever APPENDS (Flush); FlushRevert on the original truncates,
   and a later Flush overwrites the records the snapshot still refers to
   (revert_breaks_snapshots: a concrete history). *)
From GK Require Import Base Treap Store StoreSpec StoreRefine Codec CodecProofs Disk DiskProofs DStore DStoreRefine.
From GK Require Import Lazy LazyProofs.
From Coq Require Import Lia ZArith NArith List Bool.
Import ListNotations.
Open Scope Z_scope.

Fixpoint dstates (s : dstore) (ops : list op) : list dstore :=
  match ops with
  | [] => []
  | o :: ops' => let s' := fst (dstep s o) in s' :: dstates s' ops'
  end.

(* what a snapshot taken in state s holds: the current trees, to be read from the file below
   the size at that moment *)
Definition readable (f : file) (snap : dstore) : Prop :=
  Forall (fun nc => rep f (c_tree (snd nc)) /\ below (c_tree (snd nc)) (d_size snap)) (d_cur snap).

Definition is_revert (o : op) : bool := match o with ORevert => true | _ => false end.

Theorem step_appends : forall ds s ends o ds' r,
  R ds s ends -> op_okb ds o = true -> ops_ok (s_cmpreg s) [o] -> is_revert o = false ->
  dstep ds o = (ds', r) ->
  agree (d_file ds) (d_file ds') (d_size ds) /\ d_size ds <= d_size ds'.
Proof.
  intros ds s ends o ds' r HR Hok Hops Hrev Hds.
  destruct (step s o) as [s' r'] eqn:Hs.
  destruct (sim_step _ _ _ _ _ _ _ _ HR Hok Hops Hds Hs) as (_ & _ & H).
  apply H. intros ->. discriminate Hrev.
Qed.
Print Assumptions step_appends.

Lemma R_readable : forall ds s ends, R ds s ends -> readable (d_file ds) ds.
Proof.
  intros ds s ends HR. unfold readable.
  eapply Forall_impl; [|exact (R_inv _ _ _ HR)].
  intros nc (_ & H1 & H2 & _). split; assumption.
Qed.

Lemma readable_stable : forall f f' snap,
  readable f snap -> agree f f' (d_size snap) -> readable f' snap.
Proof.
  unfold readable. intros f f' snap H Ha. eapply Forall_impl; [|exact H].
  intros nc [H1 H2]. split; [eapply rep_stable; eauto | exact H2].
Qed.

(* over the states of a run, the one it starts from included (index 0): from state i to state j
   without a FlushRevert the file is only appended to *)
Lemma snapshot_gen : forall ops ds s ends i j si sj,
  R ds s ends -> ops_ok (s_cmpreg s) ops -> dhist_ok ds ops = true -> (i <= j)%nat ->
  nth_error (ds :: dstates ds ops) i = Some si -> nth_error (ds :: dstates ds ops) j = Some sj ->
  forallb (fun o => negb (is_revert o)) (firstn (j - i) (skipn i ops)) = true ->
  readable (d_file si) si /\ agree (d_file si) (d_file sj) (d_size si) /\ d_size si <= d_size sj.
Proof.
  assert (H0 : forall ds s ends, R ds s ends ->
    readable (d_file ds) ds /\ agree (d_file ds) (d_file ds) (d_size ds) /\ d_size ds <= d_size ds).
  { intros ds s ends HR. split; [eapply R_readable; exact HR|]. split; [apply agree_refl | lia]. }
  induction ops as [|o ops IH]; intros ds s ends i j si sj HR Hops Hh Hij Hi Hj Hf;
    (destruct j as [|j]; [destruct i; [|lia]; inversion Hi; inversion Hj; subst; eauto|]).
  - destruct j; discriminate Hj.
  - cbn [dhist_ok] in Hh. apply andb_prop in Hh. destruct Hh as [Hok Hh].
    cbn [dstates] in Hi, Hj.
    destruct (dstep ds o) as [ds' r] eqn:Hds. destruct (step s o) as [s' r'] eqn:Hs.
    cbn [fst] in Hh, Hi, Hj.
    destruct (ops_ok_step _ _ _ _ _ Hops Hs) as [Hops1 Hops2].
    destruct (sim_step _ _ _ _ _ _ _ _ HR Hok Hops1 Hds Hs) as (_ & HR' & Ha).
    destruct i as [|i]; cbn [nth_error] in Hi, Hj.
    + inversion Hi; subst si.
      cbn [Nat.sub skipn firstn forallb] in Hf. apply andb_prop in Hf. destruct Hf as [Hr Hf].
      apply negb_true_iff in Hr. destruct Ha as [A1 A2]; [intros ->; discriminate Hr|].
      destruct (IH _ _ _ 0%nat j ds' sj HR' Hops2 Hh) as (_ & B1 & B2);
        [lia | reflexivity | exact Hj | rewrite Nat.sub_0_r; exact Hf |].
      split; [eapply R_readable; exact HR|]. split; [eapply agree_trans; eauto | lia].
    + apply (IH _ _ _ i j si sj HR' Hops2 Hh); auto. lia.
Qed.

Theorem snapshot_stays_readable : forall ops i j si sj,
  ops_ok [] ops -> history_ok ops ->
  (i <= j)%nat ->
  nth_error (dstates dinit ops) i = Some si -> nth_error (dstates dinit ops) j = Some sj ->
  forallb (fun o => negb (is_revert o)) (firstn (j - i) (skipn (S i) ops)) = true ->
  readable (d_file si) si /\ readable (d_file sj) si.
Proof.
  intros ops i j si sj Hops Hh Hij Hi Hj Hf.
  destruct (snapshot_gen ops dinit (init true) [] (S i) (S j) si sj R_init Hops Hh) as (H1 & H2 & _);
    [lia | exact Hi | exact Hj | exact Hf |].
  split; [exact H1 | eapply readable_stable; eauto].
Qed.
Print Assumptions snapshot_stays_readable.

(* also: the store size never moves backwards over such a stretch *)
Corollary snapshot_size_le : forall ops i j si sj,
  ops_ok [] ops -> history_ok ops -> (i <= j)%nat ->
  nth_error (dstates dinit ops) i = Some si -> nth_error (dstates dinit ops) j = Some sj ->
  forallb (fun o => negb (is_revert o)) (firstn (j - i) (skipn (S i) ops)) = true ->
  agree (d_file si) (d_file sj) (d_size si) /\ d_size si <= d_size sj.
Proof.
  intros ops i j si sj Hops Hh Hij Hi Hj Hf.
  destruct (snapshot_gen ops dinit (init true) [] (S i) (S j) si sj R_init Hops Hh) as (_ & H2 & H3);
    [lia | exact Hi | exact Hj | exact Hf | auto].
Qed.

Theorem snapshot_loads_same : forall ops i j si sj nc,
  ops_ok [] ops -> history_ok ops -> (i <= j)%nat ->
  nth_error (dstates dinit ops) i = Some si -> nth_error (dstates dinit ops) j = Some sj ->
  forallb (fun o => negb (is_revert o)) (firstn (j - i) (skipn (S i) ops)) = true ->
  In nc (d_cur si) -> persisted (c_tree (snd nc)) ->
  (Treap.size (c_tree (snd nc)) <= S (length (d_file sj)))%nat ->
  load (S (length (d_file sj))) (d_file sj) (root_loc (c_tree (snd nc))) (d_size si) (S (length (d_file sj)))
  = Some (c_tree (snd nc), (S (length (d_file sj)) - Treap.size (c_tree (snd nc)))%nat).
Proof.
  intros ops i j si sj nc Hops Hh Hij Hi Hj Hf Hin Hp Hsz.
  destruct (snapshot_stays_readable ops i j si sj Hops Hh Hij Hi Hj Hf) as [_ H].
  unfold readable in H. rewrite Forall_forall in H. destruct (H _ Hin) as [Hrep Hbel].
  apply load_rep; auto.
  pose proof (rep_height_le_file _ _ Hrep Hp). lia.
Qed.
Print Assumptions snapshot_loads_same.

(* coll a; set k1 v1; flush (ends at 137); set k2 "vv2"; flush (ends at 276)  -- snapshot point i = 4:
   two items, the second item record at 137 (21 bytes);
   revert (truncates to 137); set k3 "xxxxxxx"; flush  -- j = 7: the item record now at 137 has
   25 bytes, key k3: the snapshot's location (137, 21) now decodes to the item k3 |-> "xxxxxxx"
   (the record's own length fields are read), not to the snapshot's item k2 |-> "vv2" *)
Definition brk_ops : list op :=
  [ OColl [97]%N 0;
    OSet [97]%N [107; 49]%N (Some [118; 49]%N) 5;
    OFlush;
    OSet [97]%N [107; 50]%N (Some [118; 118; 50]%N) 7;
    OFlush;
    ORevert;
    OSet [97]%N [107; 51]%N (Some [120; 120; 120; 120; 120; 120; 120]%N) 3;
    OFlush ].

Definition brk_si : dstore := nth 4 (dstates dinit brk_ops) dinit.
Definition brk_sj : dstore := nth 7 (dstates dinit brk_ops) dinit.
Definition brk_q : ploc := mkPloc 137 21.
Definition brk_it : item := mkItem [107; 50]%N [118; 118; 50]%N 7.

(* the record is part of the snapshot's tree and was readable at the snapshot point ... *)
Example brk_before :
  map (fun nc => item_locs (c_tree (snd nc))) (d_cur brk_si) =
    [[(mkPloc 0 20, mkItem [107; 49]%N [118; 49]%N 5); (brk_q, brk_it)]] /\
  dec_item (d_file brk_si) brk_q = Some brk_it /\
  d_size brk_si = 276 /\ d_size brk_sj = 332.
Proof. vm_compute. auto. Qed.

(* ... and is not any more after revert + flush *)
Example brk_after :
  dec_item (d_file brk_sj) brk_q = Some (mkItem [107; 51]%N [120; 120; 120; 120; 120; 120; 120]%N 3).
Proof. vm_compute. reflexivity. Qed.

Lemma dstates_length : forall ops ds, length (dstates ds ops) = length ops.
Proof. induction ops as [|o ops IH]; intro ds; cbn [dstates length]; [|rewrite IH]; reflexivity. Qed.

(* the states at 4 and 7 are brk_si and brk_sj by definition, and what is needed of them is in
   brk_before and brk_after, so that here the history is evaluated for history_ok only *)
Example revert_breaks_snapshots : exists ops i j si sj,
  ops_ok [] ops /\ history_ok ops /\ (i <= j)%nat /\
  nth_error (dstates dinit ops) i = Some si /\ nth_error (dstates dinit ops) j = Some sj /\
  ~ readable (d_file sj) si.
Proof.
  exists brk_ops, 4%nat, 7%nat, brk_si, brk_sj.
  split; [cbn; auto|]. split; [vm_compute; reflexivity|]. split; [lia|].
  split; [|split]; try (apply nth_error_nth'; rewrite dstates_length; cbn; lia).
  intro H. unfold readable in H. destruct brk_before as [E _].
  destruct (d_cur brk_si) as [|nc cs]; [discriminate E|].
  apply Forall_inv in H. destruct H as [Hrep _]. injection E as E _.
  assert (Hin : In (brk_q, brk_it) (item_locs (c_tree (snd nc)))) by (rewrite E; right; left; reflexivity).
  destruct (rep_item_lens _ _ Hrep _ _ Hin) as [_ Hdec].
  rewrite brk_after in Hdec. discriminate Hdec.
Qed.
Print Assumptions revert_breaks_snapshots.

(* the hypothesis of snapshot_stays_readable that fails here is exactly the absence of a FlushRevert in between *)
Example brk_has_revert :
  forallb (fun o => negb (is_revert o)) (firstn (7 - 4) (skipn 5 brk_ops)) = false.
Proof. reflexivity. Qed.
