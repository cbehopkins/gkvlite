(* itemLoc.read: an item is (re)read from the file iff it is not cached, or cached without its value while the value is
   asked for (Lazy.v / LazyMut.reads_of; C19). *)
From GK Require Import Base Treap Codec Blocks GExpr Generated DecBase.
From Coq Require Import ZArith NArith List String Bool Lia.
Import ListNotations.
Open Scope string_scope.
Open Scope list_scope.
Open Scope Z_scope.

Theorem item_reload_decision :
  exists c, decisions "itemLoc.read" "icur.Val" = [c] /\
    forall cached hasval wv : bool,
      gtrue (upd (upd (upd env0 "icur" (b2z cached)) "icur.Val" (b2z hasval)) "withValue" (b2z wv)) c =
      Some (negb cached || (negb hasval && wv)).
Proof. eexists. split; [vm_compute; reflexivity|]. intros [|] [|] [|]; reflexivity. Qed.

