(* TreapSpec.v — the treap model refines a strictly sorted association list: split / join / insert /
   delete / lookup / min / max against find / ins / del, exact aggregates, heap order, "the operations
   preserve P" (parts_closed, Section Weights), visits as a function of the in-order list (visit_vout),
   and the shape as a function of the items (treap_unique).  For an arbitrary comparator satisfying
   cmp_laws (the counterexample to heap order under a lower-priority overwrite is for cmp_bytes) and
   for trees of any size. *)
From GK Require Import Base Treap.

Section Spec.
Variable cmp : bytes -> bytes -> comparison.

Definition klt (a b : bytes) : Prop := cmp a b = Lt.
Definition all_lt (l : list item) (k : bytes) : Prop := Forall (fun i => klt (ikey i) k) l.
Definition all_gt (l : list item) (k : bytes) : Prop := Forall (fun i => klt k (ikey i)) l.

Fixpoint sorted (l : list item) : Prop :=
  match l with
  | [] => True
  | x :: xs => all_gt xs (ikey x) /\ sorted xs
  end.

Fixpoint ins (it : item) (l : list item) : list item :=
  match l with
  | [] => [it]
  | x :: xs =>
    match cmp (ikey it) (ikey x) with
    | Lt => it :: x :: xs
    | Eq => it :: xs
    | Gt => x :: ins it xs
    end
  end.

Fixpoint del (k : bytes) (l : list item) : list item :=
  match l with
  | [] => []
  | x :: xs =>
    match cmp k (ikey x) with
    | Lt => x :: xs
    | Eq => xs
    | Gt => x :: del k xs
    end
  end.

Fixpoint find (k : bytes) (l : list item) : option item :=
  match l with
  | [] => None
  | x :: xs =>
    match cmp k (ikey x) with
    | Lt => None
    | Eq => Some x
    | Gt => find k xs
    end
  end.

Definition sum_bytes (l : list item) : Z := fold_right (fun i a => item_bytes i + a) 0 l.

Fixpoint bst (t : tree) : Prop :=
  match t with
  | E => True
  | T _ l _ it _ _ r => bst l /\ bst r /\ all_lt (elems l) (ikey it) /\ all_gt (elems r) (ikey it)
  end.

(* every node stores the exact item count and byte total of its subtree *)
Fixpoint aggs (t : tree) : Prop :=
  match t with
  | E => True
  | T _ l _ it nn nb r =>
    aggs l /\ aggs r /\ nn = Z.of_nat (size t) /\ nb = sum_bytes (elems t)
  end.

(* heap: no child outranks its parent (non-strict) *)
Definition root_prio_le (t : tree) (p : Z) : Prop :=
  match t with E => True | T _ _ _ it _ _ _ => iprio it <= p end.
Fixpoint heap (t : tree) : Prop :=
  match t with
  | E => True
  | T _ l _ it _ _ r => heap l /\ heap r /\ root_prio_le l (iprio it) /\ root_prio_le r (iprio it)
  end.

(* shape: the tree without locations and aggregates *)
Inductive shape := SE | ST (l : shape) (it : item) (r : shape).
Fixpoint shape_of (t : tree) : shape :=
  match t with E => SE | T _ l _ it _ _ r => ST (shape_of l) it (shape_of r) end.

Definition mid (m : option (option ploc * item)) : list item :=
  match m with Some (_, i) => [i] | None => [] end.

End Spec.

(* tmax_spec is stated with this one: the last element is the head of the reversal *)
Definition last_error {A : Type} (l : list A) : option A := hd_error (rev l).

Lemma NoDup_app_iff {A} (l l' : list A) :
  NoDup (l ++ l') <-> NoDup l /\ NoDup l' /\ (forall x, In x l -> In x l' -> False).
Proof.
  induction l as [|a l IH]; cbn [app].
  - split; [intros H; split; [constructor|split; [assumption|intros x []]]|tauto].
  - split.
    + intros H. inversion H as [|? ? Hn Hd]; subst. apply IH in Hd. destruct Hd as (D1 & D2 & D3).
      split; [constructor; auto; intros Hin; apply Hn; apply in_or_app; now left|].
      split; [assumption|]. intros x [->|Hx] Hx'; [apply Hn; apply in_or_app; now right|eauto].
    + intros (D1 & D2 & D3). inversion D1 as [|? ? Hn Hd]; subst. constructor.
      * intros Hin. apply in_app_or in Hin. destruct Hin as [Hin|Hin]; [auto|]. apply (D3 a); simpl; auto.
      * apply IH. repeat split; auto. intros x Hx Hx'. apply (D3 x); simpl; auto.
Qed.

(* an element whose image under f occurs once stands at one position only *)
Lemma NoDup_pivot {A B} (f : A -> B) : forall l1 l2 x y r1 r2,
  NoDup (map f (l1 ++ x :: r1)) -> l1 ++ x :: r1 = l2 ++ y :: r2 -> f x = f y ->
  l1 = l2 /\ x = y /\ r1 = r2 /\ NoDup (map f l1) /\ NoDup (map f r1).
Proof.
  induction l1 as [|a l1 IH]; intros [|b l2] x y r1 r2 Hnd He Hf;
    injection He as -> He; cbn [app map] in Hnd; inversion Hnd as [|? ? Hn Hd]; subst.
  - repeat split; auto. constructor.
  - exfalso. apply Hn. rewrite Hf. apply in_map, in_elt.
  - exfalso. apply Hn. rewrite <- Hf. apply in_map, in_elt.
  - destruct (IH _ _ _ _ _ Hd He Hf) as (-> & -> & -> & H1 & H2). repeat split; auto.
    constructor; [|exact H1]. intro Hi. apply Hn. rewrite map_app. apply in_or_app. left. exact Hi.
Qed.

Lemma filter_nil {A : Type} (P : A -> bool) (l : list A) :
  (forall x, In x l -> P x = false) -> filter P l = [].
Proof.
  induction l as [|a l IH]; cbn; intro H; [reflexivity|].
  rewrite (H a) by auto. apply IH. intros. apply H. auto.
Qed.

Lemma elems_nil : forall t, elems t = [] -> t = E.
Proof.
  destruct t as [|nl l il it nn nb r]; cbn; [reflexivity|].
  intro H. symmetry in H. apply app_cons_not_nil in H. contradiction.
Qed.

Theorem size_elems : forall t, size t = length (elems t).
Proof.
  induction t as [|nl l IHl il it nn nb r IHr]; cbn [size elems length]; [reflexivity|].
  rewrite app_length. cbn [length]. lia.
Qed.

Lemma sum_bytes_app : forall l x r,
  sum_bytes (l ++ x :: r) = sum_bytes l + sum_bytes r + item_bytes x.
Proof.
  unfold sum_bytes. induction l as [|y l IH]; intros x r; cbn [app fold_right].
  - lia.
  - rewrite IH. lia.
Qed.

Lemma aggs_num : forall t, aggs t -> num t = Z.of_nat (size t) /\ nby t = sum_bytes (elems t).
Proof.
  destruct t as [|nl l il it nn nb r].
  - intros _. split; reflexivity.
  - intros (_ & _ & H1 & H2). cbn [num nby]. auto.
Qed.

Lemma aggs_mk : forall l il it r, aggs l -> aggs r -> aggs (mk l il it r).
Proof.
  intros l il it r Hl Hr.
  destruct (aggs_num l Hl) as [Hl1 Hl2]. destruct (aggs_num r Hr) as [Hr1 Hr2].
  unfold mk. cbn [aggs]. repeat split; auto.
  - cbn [size]. rewrite Hl1, Hr1. lia.
  - cbn [elems]. rewrite sum_bytes_app, Hl2, Hr2. reflexivity.
Qed.

Lemma aggs_single : forall it, aggs (single it).
Proof. intro it. exact (aggs_mk E None it E I I). Qed.

Theorem totals_exact : forall t, aggs t ->
  totals t = (Z.of_nat (length (elems t)), sum_bytes (elems t)).
Proof.
  intros t H. destruct (aggs_num t H) as [H1 H2].
  unfold totals. rewrite H1, H2, size_elems. reflexivity.
Qed.

Lemma root_prio_le_mono : forall t p q, root_prio_le t p -> p <= q -> root_prio_le t q.
Proof. destruct t; cbn; intros; [auto | lia]. Qed.

Lemma heap_le_root : forall t, heap t -> forall p, root_prio_le t p ->
  Forall (fun x => iprio x <= p) (elems t).
Proof.
  induction t as [|nl l IHl il it nn nb r IHr]; cbn [heap elems root_prio_le].
  - intros. constructor.
  - intros (Hl & Hr & Hlp & Hrp) p Hp.
    apply Forall_app. split; [|constructor].
    + apply IHl; auto. eapply root_prio_le_mono; eauto.
    + exact Hp.
    + apply IHr; auto. eapply root_prio_le_mono; eauto.
Qed.

Theorem tmin_spec : forall t, tmin t = hd_error (elems t).
Proof.
  induction t as [|nl l IHl il it nn nb r IHr]; cbn [tmin elems]; [reflexivity|].
  rewrite IHl. destruct l as [|nl' l1 il' it' nn' nb' l2]; cbn [elems].
  - reflexivity.
  - rewrite <- app_assoc. destruct (elems l1); reflexivity.
Qed.

Theorem tmax_spec : forall t, tmax t = last_error (elems t).
Proof.
  unfold last_error.
  induction t as [|nl l IHl il it nn nb r IHr]; cbn [tmax elems]; [reflexivity|].
  rewrite IHr. destruct r as [|nl' r1 il' it' nn' nb' r2]; cbn [elems];
    rewrite !rev_app_distr; cbn [rev]; rewrite <- ?app_assoc.
  - reflexivity.
  - rewrite rev_app_distr. cbn [rev]. rewrite <- !app_assoc. destruct (rev (elems r2)); reflexivity.
Qed.

Lemma treap_unique_gen : forall a b, heap a -> heap b -> elems a = elems b ->
  NoDup (map iprio (elems a)) -> shape_of a = shape_of b.
Proof.
  induction a as [|nl la IHl il ia nn nb ra IHr]; intros b Ha Hb He Hnd.
  - symmetry in He. apply elems_nil in He. subst. reflexivity.
  - destruct b as [|nl' lb il' ib nn' nb' rb]; [apply elems_nil in He; discriminate|].
    (* both roots have the greatest priority of the same list *)
    pose proof (heap_le_root _ Ha _ (Z.le_refl _)) as Hma.
    pose proof (heap_le_root _ Hb _ (Z.le_refl _)) as Hmb.
    rewrite <- He in Hmb. rewrite Forall_forall in Hma, Hmb. cbn [elems] in *.
    assert (Hp : iprio ia = iprio ib).
    { apply Z.le_antisymm; [apply Hmb, in_elt | apply Hma; rewrite He; apply in_elt]. }
    destruct (NoDup_pivot iprio _ _ _ _ _ _ Hnd He Hp) as (El & <- & Er & Hdl & Hdr).
    destruct Ha as (Hla & Hra & _), Hb as (Hlb & Hrb & _).
    cbn [shape_of]. f_equal; auto.
Qed.

Section Proofs.
Variable cmp : bytes -> bytes -> comparison.
Hypothesis laws : cmp_laws cmp.

Lemma cmp_gt_lt : forall a b, cmp a b = Gt -> cmp b a = Lt.
Proof. intros a b H. rewrite (cmp_opp _ laws a b), H. reflexivity. Qed.

Lemma cmp_lt_gt : forall a b, cmp a b = Lt -> cmp b a = Gt.
Proof. intros a b H. rewrite (cmp_opp _ laws a b), H. reflexivity. Qed.

Lemma cmp_eq_sym : forall a b, cmp a b = Eq -> cmp b a = Eq.
Proof. intros a b H. rewrite (cmp_opp _ laws a b), H. reflexivity. Qed.

Lemma cmp_eq_r : forall a b c, cmp a b = Eq -> cmp c a = cmp c b.
Proof.
  intros a b c H. rewrite (cmp_opp _ laws a c), (cmp_opp _ laws b c).
  rewrite (cmp_eq_l _ laws a b c H). reflexivity.
Qed.

Lemma all_lt_trans : forall l k k', all_lt cmp l k -> cmp k k' = Lt -> all_lt cmp l k'.
Proof.
  unfold all_lt, klt. intros l k k' H Hk. eapply Forall_impl; [|exact H].
  cbn. intros a Ha. eapply (cmp_lt_trans _ laws); eauto.
Qed.

Lemma all_lt_eq : forall l k k', all_lt cmp l k -> cmp k k' = Eq -> all_lt cmp l k'.
Proof.
  unfold all_lt, klt. intros l k k' H Hk. eapply Forall_impl; [|exact H].
  cbn. intros a Ha. rewrite <- (cmp_eq_r k k' _ Hk). exact Ha.
Qed.

Lemma all_gt_trans : forall l k k', all_gt cmp l k -> cmp k' k = Lt -> all_gt cmp l k'.
Proof.
  unfold all_gt, klt. intros l k k' H Hk. eapply Forall_impl; [|exact H].
  cbn. intros a Ha. eapply (cmp_lt_trans _ laws); eauto.
Qed.

Lemma all_gt_eq : forall l k k', all_gt cmp l k -> cmp k' k = Eq -> all_gt cmp l k'.
Proof.
  unfold all_gt, klt. intros l k k' H Hk. eapply Forall_impl; [|exact H].
  cbn. intros a Ha. rewrite (cmp_eq_l _ laws k' k _ Hk). exact Ha.
Qed.

Lemma sorted_app : forall l x r,
  sorted cmp (l ++ x :: r) <->
  sorted cmp l /\ sorted cmp r /\ all_lt cmp l (ikey x) /\ all_gt cmp r (ikey x).
Proof.
  induction l as [|y l IH]; intros x r; cbn [app sorted].
  - unfold all_lt. split.
    + intros [H1 H2]. repeat split; auto.
    + intros (_ & H2 & _ & H4). auto.
  - rewrite IH. unfold all_lt, all_gt. rewrite Forall_app, !Forall_cons_iff. split.
    + intros ((H1 & H2 & H3) & H4 & H5 & H6 & H7). repeat split; auto.
    + intros ((H1 & H2) & H3 & (H4 & H5) & H6). repeat split; auto.
      eapply (all_gt_trans r (ikey x) (ikey y)); eauto.
Qed.

Lemma sorted_app2 : forall l r,
  sorted cmp (l ++ r) <->
  sorted cmp l /\ sorted cmp r /\ (forall x y, In x l -> In y r -> cmp (ikey x) (ikey y) = Lt).
Proof.
  induction l as [|a l IH]; intro r; cbn [app sorted].
  - split; [intro H; repeat split; auto; intros x y [] | tauto].
  - rewrite IH. unfold all_gt, klt. rewrite Forall_app, !Forall_forall. split.
    + intros ((Hl & Hr) & H1 & H2 & H3). repeat split; auto.
      intros x y [<-|Hx] Hy; auto.
    + intros ((Hl & H1) & H2 & H3). repeat split; auto.
      * intros y Hy. apply H3; [left; reflexivity | exact Hy].
      * intros x y Hx Hy. apply H3; [right; exact Hx | exact Hy].
Qed.

Lemma Forall_ins : forall (P : item -> Prop) it l, P it -> Forall P l -> Forall P (ins cmp it l).
Proof.
  intros P it. induction l as [|x l IH]; intros Hp Hl; cbn [ins].
  - auto.
  - pose proof (Forall_inv Hl). apply Forall_inv_tail in Hl.
    destruct (cmp (ikey it) (ikey x)); auto.
Qed.

Lemma Forall_del : forall (P : item -> Prop) k l, Forall P l -> Forall P (del cmp k l).
Proof.
  intros P k. induction l as [|x l IH]; intros Hl; cbn [del].
  - auto.
  - pose proof (Forall_inv Hl). apply Forall_inv_tail in Hl.
    destruct (cmp k (ikey x)); auto.
Qed.

Theorem ins_sorted : forall it l, sorted cmp l -> sorted cmp (ins cmp it l).
Proof.
  intros it. induction l as [|x l IH]; intros Hs; cbn [ins].
  - cbn. split; auto. constructor.
  - cbn [sorted] in Hs. destruct Hs as [Hg Hs].
    destruct (cmp (ikey it) (ikey x)) eqn:Hc; cbn [sorted].
    + split; auto. eapply all_gt_eq; eauto.
    + split; [|split; auto]. constructor; [exact Hc|]. eapply all_gt_trans; eauto.
    + split; auto. apply Forall_ins; auto. apply cmp_gt_lt. exact Hc.
Qed.

Theorem del_sorted : forall k l, sorted cmp l -> sorted cmp (del cmp k l).
Proof.
  intros k. induction l as [|x l IH]; intros Hs; cbn [del].
  - exact I.
  - cbn [sorted] in Hs. destruct Hs as [Hg Hs].
    destruct (cmp k (ikey x)) eqn:Hc; cbn [sorted]; auto.
    split; auto. apply Forall_del. exact Hg.
Qed.

Lemma find_all_gt : forall k l, all_gt cmp l k -> find cmp k l = None.
Proof.
  intros k [|x l] H; cbn [find]; [reflexivity|].
  apply Forall_inv in H. unfold klt in H. rewrite H. reflexivity.
Qed.

Theorem find_ins_same : forall it l, sorted cmp l -> find cmp (ikey it) (ins cmp it l) = Some it.
Proof.
  intros it l _. induction l as [|x l IH]; cbn [ins].
  - cbn [find]. rewrite (cmp_refl _ laws). reflexivity.
  - destruct (cmp (ikey it) (ikey x)) eqn:Hc; cbn [find].
    + rewrite (cmp_refl _ laws). reflexivity.
    + rewrite (cmp_refl _ laws). reflexivity.
    + rewrite Hc. exact IH.
Qed.

Theorem find_ins_other : forall k it l, sorted cmp l -> cmp k (ikey it) <> Eq ->
  find cmp k (ins cmp it l) = find cmp k l.
Proof.
  intros k it l _ Hne. induction l as [|x l IH]; cbn [ins].
  - cbn [find]. destruct (cmp k (ikey it)); congruence.
  - destruct (cmp (ikey it) (ikey x)) eqn:Hc; cbn [find].
    + rewrite <- (cmp_eq_r _ _ k Hc). destruct (cmp k (ikey it)); congruence.
    + destruct (cmp k (ikey it)) eqn:Hk; try congruence.
      rewrite (cmp_lt_trans _ laws _ _ _ Hk Hc). reflexivity.
    + destruct (cmp k (ikey x)); auto.
Qed.

Theorem find_del_same : forall k l, sorted cmp l -> find cmp k (del cmp k l) = None.
Proof.
  intros k. induction l as [|x l IH]; intros Hs; cbn [del].
  - reflexivity.
  - destruct Hs as [Hg Hs].
    destruct (cmp k (ikey x)) eqn:Hc.
    + apply find_all_gt. eapply all_gt_eq; eauto.
    + cbn [find]. rewrite Hc. reflexivity.
    + cbn [find]. rewrite Hc. auto.
Qed.

Theorem find_del_other : forall k k' l, sorted cmp l -> cmp k k' <> Eq ->
  find cmp k' (del cmp k l) = find cmp k' l.
Proof.
  intros k k'. induction l as [|x l IH]; intros Hs Hne; cbn [del].
  - reflexivity.
  - destruct Hs as [Hg Hs].
    destruct (cmp k (ikey x)) eqn:Hc.
    + cbn [find]. rewrite <- (cmp_eq_r _ _ k' Hc).
      destruct (cmp k' k) eqn:Hk.
      * exfalso. apply Hne. apply cmp_eq_sym. exact Hk.
      * apply find_all_gt. eapply all_gt_trans; [|exact Hk]. eapply all_gt_eq; eauto.
      * reflexivity.
    + reflexivity.
    + cbn [find]. destruct (cmp k' (ikey x)); auto.
Qed.

Lemma ins_app : forall it l r, all_lt cmp l (ikey it) -> ins cmp it (l ++ r) = l ++ ins cmp it r.
Proof.
  intros it. induction l as [|y l IH]; intros r H; cbn [app]; [reflexivity|].
  cbn [ins]. rewrite (cmp_lt_gt _ _ (Forall_inv H)), (IH _ (Forall_inv_tail H)). reflexivity.
Qed.

Lemma ins_append : forall l it, all_lt cmp l (ikey it) -> ins cmp it l = l ++ [it].
Proof.
  intros l it H. pose proof (ins_app it l [] H) as E. rewrite app_nil_r in E. exact E.
Qed.

Lemma ins_app_lt : forall it l x r, cmp (ikey it) (ikey x) = Lt ->
  ins cmp it (l ++ x :: r) = ins cmp it l ++ x :: r.
Proof.
  intros it. induction l as [|y l IH]; intros x r H; cbn [app ins].
  - rewrite H. reflexivity.
  - destruct (cmp (ikey it) (ikey y)); cbn [app]; auto. rewrite IH; auto.
Qed.

Lemma ins_all_gt : forall it r, all_gt cmp r (ikey it) -> ins cmp it r = it :: r.
Proof.
  intros it [|x r] H; cbn [ins]; [reflexivity|].
  apply Forall_inv in H. unfold klt in H. rewrite H. reflexivity.
Qed.

Lemma find_app : forall k l r, all_lt cmp l k -> find cmp k (l ++ r) = find cmp k r.
Proof.
  intros k. induction l as [|y l IH]; intros r H; cbn [app]; [reflexivity|].
  cbn [find]. rewrite (cmp_lt_gt _ _ (Forall_inv H)). exact (IH _ (Forall_inv_tail H)).
Qed.

Lemma find_all_lt : forall k l, all_lt cmp l k -> find cmp k l = None.
Proof.
  intros k l H. pose proof (find_app k l [] H) as E. rewrite app_nil_r in E. exact E.
Qed.

(* the step of a search at a node *)
Lemma find_node : forall k l x r, all_lt cmp l (ikey x) ->
  find cmp k (l ++ x :: r) =
  match cmp k (ikey x) with Eq => Some x | Lt => find cmp k l | Gt => find cmp k r end.
Proof.
  intros k l x r. induction l as [|y l IH]; intro H; cbn [app find].
  - destruct (cmp k (ikey x)); reflexivity.
  - rewrite (IH (Forall_inv_tail H)). apply Forall_inv in H. unfold klt in H.
    destruct (cmp k (ikey y)) eqn:Hc; [ | |reflexivity].
    + rewrite (cmp_eq_l _ laws _ _ _ Hc), H. reflexivity.
    + rewrite (cmp_lt_trans _ laws _ _ _ Hc H). reflexivity.
Qed.

Lemma del_app : forall k l r, all_lt cmp l k -> del cmp k (l ++ r) = l ++ del cmp k r.
Proof.
  intros k. induction l as [|y l IH]; intros r H; cbn [app]; [reflexivity|].
  cbn [del]. rewrite (cmp_lt_gt _ _ (Forall_inv H)), (IH _ (Forall_inv_tail H)). reflexivity.
Qed.

Lemma del_all_gt : forall k r, all_gt cmp r k -> del cmp k r = r.
Proof.
  intros k [|x r] H; cbn [del]; [reflexivity|].
  apply Forall_inv in H. unfold klt in H. rewrite H. reflexivity.
Qed.

Lemma del_find_none : forall k l, find cmp k l = None -> del cmp k l = l.
Proof.
  intros k. induction l as [|x l IH]; cbn [find del]; intro H; [reflexivity|].
  destruct (cmp k (ikey x)); try discriminate; auto. rewrite IH; auto.
Qed.

Theorem bst_sorted : forall t, bst cmp t <-> sorted cmp (elems t).
Proof.
  induction t as [|nl l IHl il it nn nb r IHr]; cbn [bst elems].
  - apply iff_refl.
  - rewrite sorted_app, <- IHl, <- IHr. reflexivity.
Qed.

Lemma bst_mk : forall l il it r,
  bst cmp (mk l il it r) <->
  bst cmp l /\ bst cmp r /\ all_lt cmp (elems l) (ikey it) /\ all_gt cmp (elems r) (ikey it).
Proof. intros. apply iff_refl. Qed.

Lemma elems_mk : forall l il it r, elems (mk l il it r) = elems l ++ it :: elems r.
Proof. reflexivity. Qed.

Lemma heap_mk : forall l il it r,
  heap (mk l il it r) <->
  heap l /\ heap r /\ root_prio_le l (iprio it) /\ root_prio_le r (iprio it).
Proof. intros. apply iff_refl. Qed.

(* split as a relation, so that the shortcut matches of Treap.split are not opened in every proof *)

Inductive splitR (s : bytes) : tree -> tree -> option (option ploc * item) -> tree -> Prop :=
| sp_E : splitR s E E None E
| sp_eq : forall nl l il it nn nb r, cmp s (ikey it) = Eq ->
    splitR s (T nl l il it nn nb r) l (Some (il, it)) r
| sp_lt_E : forall nl il it nn nb r, cmp s (ikey it) = Lt ->
    splitR s (T nl E il it nn nb r) E None (T nl E il it nn nb r)
| sp_lt : forall nl l il it nn nb r ll m lr, cmp s (ikey it) = Lt ->
    splitR s l ll m lr ->
    splitR s (T nl l il it nn nb r) ll m (mk lr il it r)
| sp_gt_E : forall nl l il it nn nb, cmp s (ikey it) = Gt ->
    splitR s (T nl l il it nn nb E) (T nl l il it nn nb E) None E
| sp_gt : forall nl l il it nn nb r rl m rr, cmp s (ikey it) = Gt ->
    splitR s r rl m rr ->
    splitR s (T nl l il it nn nb r) (mk l il it rl) m rr.

Lemma split_eq nl l il it nn nb r s :
  split cmp (T nl l il it nn nb r) s =
  match cmp s (ikey it) with
  | Eq => (l, Some (il, it), r)
  | Lt => match l with
          | E => (E, None, T nl l il it nn nb r)
          | _ => let '(ll, m, lr) := split cmp l s in (ll, m, mk lr il it r)
          end
  | Gt => match r with
          | E => (T nl l il it nn nb r, None, E)
          | _ => let '(rl, m, rr) := split cmp r s in (mk l il it rl, m, rr)
          end
  end.
Proof. reflexivity. Qed.

Lemma split_R : forall t s l m r, split cmp t s = (l, m, r) -> splitR s t l m r.
Proof.
  induction t as [|nl tl IHl il it nn nb tr IHr]; intros s l m r H.
  - injection H as <- <- <-. constructor.
  - cbn [split] in H. destruct (cmp s (ikey it)) eqn:Hc.
    + injection H as <- <- <-. constructor. exact Hc.
    + destruct (split cmp tl s) as [[ll m'] lr] eqn:Hs.
      destruct tl as [|nl' a il' it' nn' nb' b].
      * injection H as <- <- <-. constructor. exact Hc.
      * injection H as <- <- <-. apply sp_lt; auto.
    + destruct (split cmp tr s) as [[rl m'] rr] eqn:Hs.
      destruct tr as [|nl' a il' it' nn' nb' b].
      * injection H as <- <- <-. constructor. exact Hc.
      * injection H as <- <- <-. apply sp_gt; auto.
Qed.

(* the partition itself needs no search-tree hypothesis *)
Lemma splitR_elems : forall s t l m r, splitR s t l m r -> elems t = elems l ++ mid m ++ elems r.
Proof.
  induction 1; cbn [elems mid app]; rewrite ?elems_mk, ?IHsplitR, ?app_nil_r; cbn [elems];
    repeat rewrite <- app_assoc; reflexivity.
Qed.

Lemma splitR_keys : forall s t l m r, splitR s t l m r -> bst cmp t ->
  all_lt cmp (elems l) s /\ all_gt cmp (elems r) s /\
  (forall il i, m = Some (il, i) -> cmp s (ikey i) = Eq).
Proof.
  intros s t l m r HR.
  induction HR as [ | nl l il it nn nb r Hc | nl il it nn nb r Hc
                   | nl l il it nn nb r ll m lr Hc HR IH
                   | nl l il it nn nb Hc
                   | nl l il it nn nb r rl m rr Hc HR IH ];
    intro Hb; try (destruct Hb as (Hl & Hr & Hlt & Hgt)).
  - repeat split; try constructor. discriminate.
  - repeat split.
    + eapply all_lt_eq; eauto. apply cmp_eq_sym. exact Hc.
    + eapply all_gt_eq; eauto.
    + intros il' i H. injection H as _ <-. exact Hc.
  - repeat split; [constructor | | discriminate].
    constructor; [exact Hc|]. eapply all_gt_trans; eauto.
  - destruct (IH Hl) as (Hal & Hag & Hm). repeat split; auto.
    rewrite elems_mk. apply Forall_app. split; [exact Hag|].
    constructor; [exact Hc|]. eapply all_gt_trans; eauto.
  - repeat split; [ | constructor | discriminate].
    cbn [elems]. apply Forall_app. split; [eapply all_lt_trans; eauto; apply cmp_gt_lt; exact Hc|].
    repeat constructor. apply cmp_gt_lt. exact Hc.
  - destruct (IH Hr) as (Hal & Hag & Hm). repeat split; auto.
    rewrite elems_mk. apply Forall_app. split; [eapply all_lt_trans; eauto; apply cmp_gt_lt; exact Hc|].
    constructor; [apply cmp_gt_lt; exact Hc | exact Hal].
Qed.

Theorem split_spec : forall t s l m r, bst cmp t -> split cmp t s = (l, m, r) ->
  elems t = elems l ++ mid m ++ elems r /\ bst cmp l /\ bst cmp r /\
  all_lt cmp (elems l) s /\ all_gt cmp (elems r) s /\
  (forall il i, m = Some (il, i) -> cmp s (ikey i) = Eq /\ In i (elems t)).
Proof.
  intros t s l m r Hb Hs. apply split_R in Hs.
  pose proof (splitR_elems _ _ _ _ _ Hs) as He.
  destruct (splitR_keys _ _ _ _ _ Hs Hb) as (Hal & Hag & Hm).
  (* both parts are sublists of a sorted list *)
  apply bst_sorted in Hb. rewrite He in Hb.
  apply sorted_app2 in Hb. destruct Hb as (Hsl & Hsr & _).
  apply sorted_app2 in Hsr. destruct Hsr as (_ & Hsr & _).
  split; [exact He|]. split; [apply bst_sorted; exact Hsl|]. split; [apply bst_sorted; exact Hsr|].
  split; [exact Hal|]. split; [exact Hag|]. intros il i ->. split; [exact (Hm il i eq_refl)|].
  rewrite He. apply in_or_app. right. left. reflexivity.
Qed.

Theorem split_heap : forall t s l m r, heap t -> split cmp t s = (l, m, r) ->
  heap l /\ heap r /\ (forall p, root_prio_le t p -> root_prio_le l p /\ root_prio_le r p).
Proof.
  intros t s l m r Hh Hs. apply split_R in Hs.
  induction Hs as [ | nl l il it nn nb r Hc | nl il it nn nb r Hc
                   | nl l il it nn nb r ll m lr Hc HR IH
                   | nl l il it nn nb Hc
                   | nl l il it nn nb r rl m rr Hc HR IH ].
  - auto.
  - cbn [heap] in Hh. destruct Hh as (Hl & Hr & Hlp & Hrp). repeat split; auto.
    + eapply root_prio_le_mono; eauto.
    + eapply root_prio_le_mono; eauto.
  - split; [exact I|]. split; [exact Hh|]. intros p Hp. split; [exact I | exact Hp].
  - cbn [heap] in Hh. destruct Hh as (Hl & Hr & Hlp & Hrp).
    destruct (IH Hl) as (H1 & H2 & H3).
    rewrite heap_mk. repeat split; auto.
    + apply (H3 _ Hlp).
    + cbn [root_prio_le] in H. apply H3. eapply root_prio_le_mono; eauto.
  - split; [exact Hh|]. split; [exact I|]. intros p Hp. split; [exact Hp | exact I].
  - cbn [heap] in Hh. destruct Hh as (Hl & Hr & Hlp & Hrp).
    destruct (IH Hr) as (H1 & H2 & H3).
    rewrite heap_mk. repeat split; auto.
    + apply (H3 _ Hrp).
    + cbn [root_prio_le] in H. apply H3. eapply root_prio_le_mono; eauto.
Qed.

Lemma join_E_l : forall b, join E b = b.
Proof. destruct b; reflexivity. Qed.

Lemma join_E_r : forall a, join a E = a.
Proof. destruct a; reflexivity. Qed.

Lemma join_eq : forall n1 tl til ti nn1 nb1 tr n2 al ail ai nn2 nb2 ar,
  join (T n1 tl til ti nn1 nb1 tr) (T n2 al ail ai nn2 nb2 ar) =
  if iprio ti >? iprio ai
  then mk tl til ti (join tr (T n2 al ail ai nn2 nb2 ar))
  else mk (join (T n1 tl til ti nn1 nb1 tr) al) ail ai ar.
Proof. reflexivity. Qed.

Inductive joinR : tree -> tree -> tree -> Prop :=
| j_El : forall b, joinR E b b
| j_Er : forall a, joinR a E a
| j_gt : forall n1 tl til ti nn1 nb1 tr n2 al ail ai nn2 nb2 ar j,
    iprio ti > iprio ai ->
    joinR tr (T n2 al ail ai nn2 nb2 ar) j ->
    joinR (T n1 tl til ti nn1 nb1 tr) (T n2 al ail ai nn2 nb2 ar) (mk tl til ti j)
| j_le : forall n1 tl til ti nn1 nb1 tr n2 al ail ai nn2 nb2 ar j,
    iprio ti <= iprio ai ->
    joinR (T n1 tl til ti nn1 nb1 tr) al j ->
    joinR (T n1 tl til ti nn1 nb1 tr) (T n2 al ail ai nn2 nb2 ar) (mk j ail ai ar).

Lemma join_R : forall a b, joinR a b (join a b).
Proof.
  induction a as [|n1 tl IHtl til ti nn1 nb1 tr IHtr]; intro b.
  - rewrite join_E_l. constructor.
  - induction b as [|n2 al IHal ail ai nn2 nb2 ar IHar].
    + rewrite join_E_r. constructor.
    + rewrite join_eq. destruct (iprio ti >? iprio ai) eqn:Hp.
      * apply j_gt; [lia | apply IHtr].
      * apply j_le; [lia | apply IHal].
Qed.

Theorem join_elems : forall a b, elems (join a b) = elems a ++ elems b.
Proof.
  intros a b. generalize (join_R a b). generalize (join a b). intros j H.
  induction H; rewrite ?elems_mk, ?IHjoinR; cbn [elems]; rewrite ?app_nil_r, <- ?app_assoc; reflexivity.
Qed.

Theorem join_bst : forall a b, bst cmp a -> bst cmp b ->
  (forall x y, In x (elems a) -> In y (elems b) -> cmp (ikey x) (ikey y) = Lt) ->
  bst cmp (join a b).
Proof.
  intros a b Ha Hb Hx. apply bst_sorted. rewrite join_elems. apply sorted_app2.
  split; [apply bst_sorted; exact Ha|]. split; [apply bst_sorted; exact Hb | exact Hx].
Qed.

(* the root of a join is one of the two roots *)
Lemma joinR_root_prio : forall a b j p, joinR a b j ->
  root_prio_le a p -> root_prio_le b p -> root_prio_le j p.
Proof. intros a b j p H Ha Hb. destruct H; auto. Qed.

Theorem join_heap : forall a b, heap a -> heap b -> heap (join a b).
Proof.
  intros a b. generalize (join_R a b). generalize (join a b). intros j H.
  induction H as [ b | a
    | n1 tl til ti nn1 nb1 tr n2 al ail ai nn2 nb2 ar j Hp HR IH
    | n1 tl til ti nn1 nb1 tr n2 al ail ai nn2 nb2 ar j Hp HR IH ];
  intros Ha Hb; auto.
  - destruct Ha as (H1 & H2 & H3 & H4). rewrite heap_mk. repeat split; auto.
    apply (joinR_root_prio _ _ _ _ HR); [exact H4 | cbn [root_prio_le]; lia].
  - destruct Hb as (H1 & H2 & H3 & H4). rewrite heap_mk. repeat split; auto.
    apply (joinR_root_prio _ _ _ _ HR); [exact Hp | exact H3].
Qed.

Theorem join_root_prio : forall a b p, heap a -> heap b ->
  root_prio_le a p -> root_prio_le b p -> root_prio_le (join a b) p.
Proof. intros a b p _ _. apply joinR_root_prio, join_R. Qed.

Lemma insert_eq : forall nl l il it nn nb r new,
  insert cmp (T nl l il it nn nb r) new =
  if iprio it >? iprio new then
    match cmp (ikey it) (ikey new) with
    | Eq => mk l None new r
    | Lt => mk l il it (insert cmp r new)
    | Gt => mk (insert cmp l new) il it r
    end
  else
    let '(l', _, r') := split cmp (T nl l il it nn nb r) (ikey new) in mk l' None new r'.
Proof. reflexivity. Qed.

(* The treap operations only build nodes with [mk] and reuse existing subtrees and (location, item)
   pairs.  So a predicate on trees that can be taken apart at every node and put together at a
   node built by [mk] is preserved by split / join / insert / delete. *)
Definition parts_closed (P : tree -> Prop) (Q : option ploc -> item -> Prop) : Prop :=
  P E /\
  (forall nl l il it nn nb r, P (T nl l il it nn nb r) -> P l /\ P r /\ Q il it) /\
  (forall l il it r, P l -> P r -> Q il it -> P (mk l il it r)).

Lemma parts_and P1 Q1 P2 Q2 : parts_closed P1 Q1 -> parts_closed P2 Q2 ->
  parts_closed (fun t => P1 t /\ P2 t) (fun il it => Q1 il it /\ Q2 il it).
Proof.
  intros (E1 & D1 & M1) (E2 & D2 & M2). split; [auto|]. split.
  - intros nl l il it nn nb r [H1 H2].
    destruct (D1 _ _ _ _ _ _ _ H1) as (? & ? & ?). destruct (D2 _ _ _ _ _ _ _ H2) as (? & ? & ?). auto.
  - intros l il it r [? ?] [? ?] [? ?]. auto.
Qed.

Section Parts.
Variable P : tree -> Prop.
Variable Q : option ploc -> item -> Prop.
Hypothesis HPQ : parts_closed P Q.

Lemma split_parts : forall t s l m r, split cmp t s = (l, m, r) -> P t -> P l /\ P r.
Proof.
  destruct HPQ as (P_E & P_dec & P_mk).
  intros t s l m r H. apply split_R in H.
  induction H as [ | nl l il it nn nb r Hc | nl il it nn nb r Hc
                 | nl l il it nn nb r ll m lr Hc HR IH | nl l il it nn nb Hc
                 | nl l il it nn nb r rl m rr Hc HR IH ]; intro Ht;
    try (destruct (P_dec _ _ _ _ _ _ _ Ht) as (H1 & H2 & H3)); auto.
  - destruct (IH H1). auto.
  - destruct (IH H2). auto.
Qed.

Lemma join_parts : forall a b, P a -> P b -> P (join a b).
Proof.
  destruct HPQ as (P_E & P_dec & P_mk).
  intros a b. generalize (join_R a b). generalize (join a b). intros j H.
  induction H as [ b | a
    | n1 tl til ti nn1 nb1 tr n2 al ail ai nn2 nb2 ar j Hp HR IH
    | n1 tl til ti nn1 nb1 tr n2 al ail ai nn2 nb2 ar j Hp HR IH ]; intros Ha Hb; auto.
  - destruct (P_dec _ _ _ _ _ _ _ Ha) as (H1 & H2 & H3). auto.
  - destruct (P_dec _ _ _ _ _ _ _ Hb) as (H1 & H2 & H3). auto.
Qed.

Lemma insert_parts : forall t new, Q None new -> P t -> P (insert cmp t new).
Proof.
  pose proof HPQ as (P_E & P_dec & P_mk).
  induction t as [|nl l IHl il it nn nb r IHr]; intros new Hq Ht.
  - change (P (mk E None new E)). auto.
  - rewrite insert_eq. destruct (P_dec _ _ _ _ _ _ _ Ht) as (H1 & H2 & H3).
    destruct (iprio it >? iprio new).
    + destruct (cmp (ikey it) (ikey new)); apply P_mk; auto.
    + destruct (split cmp (T nl l il it nn nb r) (ikey new)) as [[l' m'] r'] eqn:Hs.
      destruct (split_parts _ _ _ _ _ Hs Ht). apply P_mk; auto.
Qed.

Lemma delete_parts : forall t k, P t -> P (fst (delete cmp t k)).
Proof.
  intros t k Ht. unfold delete.
  destruct (lookup cmp t k); [|exact Ht].
  destruct (split cmp t k) as [[l m] r] eqn:Hs.
  destruct m as [p|]; [|exact Ht].
  destruct (split_parts _ _ _ _ _ Hs Ht). apply join_parts; auto.
Qed.

End Parts.

(* For the same reason a measure that adds up over the nodes of a tree, and gives nothing to a node
   and to an item without a location, does not grow under insert and delete. *)
Section Weights.
Variable w : tree -> nat.
Variable wn : option ploc -> nat.
Variable wi : option ploc -> item -> nat.
Hypothesis w_E : w E = 0%nat.
Hypothesis w_T : forall nl l il it nn nb r,
  w (T nl l il it nn nb r) = (wn nl + wi il it + w l + w r)%nat.
Hypothesis wn_None : wn None = 0%nat.
Hypothesis wi_None : forall it, wi None it = 0%nat.

Lemma w_mk l il it r : w (mk l il it r) = (wi il it + w l + w r)%nat.
Proof. unfold mk. rewrite w_T, wn_None. reflexivity. Qed.

Lemma split_weight : forall t s l m r, split cmp t s = (l, m, r) -> (w l + w r <= w t)%nat.
Proof.
  intros t s l m r H. apply split_R in H.
  induction H; rewrite ?w_mk, ?w_T, ?w_E; lia.
Qed.

Lemma join_weight : forall a b, (w (join a b) <= w a + w b)%nat.
Proof.
  intros a b. generalize (join_R a b). generalize (join a b). intros j H.
  induction H; rewrite ?w_mk, ?w_E; try lia; rewrite w_T in IHjoinR; rewrite !w_T; lia.
Qed.

Lemma insert_weight : forall t new, (w (insert cmp t new) <= w t)%nat.
Proof.
  induction t as [|nl l IHl il it nn nb r IHr]; intro new.
  - change (insert cmp E new) with (mk E None new E). rewrite w_mk, wi_None, w_E. lia.
  - rewrite insert_eq. destruct (iprio it >? iprio new).
    + destruct (cmp (ikey it) (ikey new)); rewrite w_mk, w_T, ?wi_None.
      * lia.
      * specialize (IHr new). lia.
      * specialize (IHl new). lia.
    + destruct (split cmp (T nl l il it nn nb r) (ikey new)) as [[l' m'] r'] eqn:Hs.
      apply split_weight in Hs. rewrite w_mk, wi_None. lia.
Qed.

Lemma delete_weight : forall t k, (w (fst (delete cmp t k)) <= w t)%nat.
Proof.
  intros t k. unfold delete. destruct (lookup cmp t k); [|cbn [fst]; lia].
  destruct (split cmp t k) as [[l m] r] eqn:Hs.
  destruct m as [p|]; cbn [fst]; [|lia].
  apply split_weight in Hs. pose proof (join_weight l r). lia.
Qed.

End Weights.

Lemma aggs_parts : parts_closed aggs (fun _ _ => True).
Proof.
  split; [exact I|]. split.
  - intros nl l il it nn nb r (Hl & Hr & _). auto.
  - intros l il it r Hl Hr _. apply aggs_mk; assumption.
Qed.

Theorem insert_aggs : forall t it, aggs t -> aggs (insert cmp t it).
Proof. intros t it. exact (insert_parts _ _ aggs_parts t it I). Qed.

Lemma delete_aggs : forall t k, aggs t -> aggs (fst (delete cmp t k)).
Proof. exact (delete_parts _ _ aggs_parts). Qed.

Theorem insert_elems : forall t it, bst cmp t -> elems (insert cmp t it) = ins cmp it (elems t).
Proof.
  intros t new. induction t as [|nl l IHl il it nn nb r IHr]; intro Hb.
  - reflexivity.
  - rewrite insert_eq. destruct (iprio it >? iprio new).
    + cbn [bst] in Hb. destruct Hb as (Hl & Hr & Hlt & Hgt). cbn [elems].
      destruct (cmp (ikey it) (ikey new)) eqn:Hc; rewrite elems_mk.
      * rewrite ins_app by (eapply all_lt_eq; eauto).
        cbn [ins]. rewrite (cmp_eq_sym _ _ Hc). reflexivity.
      * rewrite ins_app by (eapply all_lt_trans; eauto).
        cbn [ins]. rewrite (cmp_lt_gt _ _ Hc). rewrite IHr by exact Hr. reflexivity.
      * rewrite ins_app_lt by (apply cmp_gt_lt; exact Hc).
        rewrite IHl by exact Hl. reflexivity.
    + destruct (split cmp (T nl l il it nn nb r) (ikey new)) as [[l' m] r'] eqn:Hs.
      destruct (split_spec _ _ _ _ _ Hb Hs) as (He & _ & _ & Hal & Hag & Hm).
      rewrite He, elems_mk, ins_app by exact Hal. f_equal.
      destruct m as [[il' i]|]; cbn [mid app ins].
      * rewrite (proj1 (Hm _ _ eq_refl)). reflexivity.
      * symmetry. apply ins_all_gt. exact Hag.
Qed.

Theorem insert_bst : forall t it, bst cmp t -> bst cmp (insert cmp t it).
Proof.
  intros t it Hb. apply bst_sorted. rewrite insert_elems by exact Hb.
  apply ins_sorted, bst_sorted. exact Hb.
Qed.

(* the root of an insert is the old root or the new item *)
Lemma insert_root_prio : forall t it p,
  root_prio_le t p -> iprio it <= p -> root_prio_le (insert cmp t it) p.
Proof.
  intros t new p Ht Hn. destruct t as [|nl l il it nn nb r].
  - exact Hn.
  - rewrite insert_eq. cbn [root_prio_le] in Ht. destruct (iprio it >? iprio new).
    + destruct (cmp (ikey it) (ikey new)); unfold mk; cbn [root_prio_le]; auto.
    + destruct (split cmp (T nl l il it nn nb r) (ikey new)) as [[l' m] r'].
      unfold mk; cbn [root_prio_le]; auto.
Qed.

Theorem insert_heap : forall t it, bst cmp t -> heap t ->
  (forall old, find cmp (ikey it) (elems t) = Some old -> iprio old <= iprio it) ->
  heap (insert cmp t it).
Proof.
  intros t new. induction t as [|nl l IHl il it nn nb r IHr]; intros Hb Hh Hold.
  - cbn. auto.
  - rewrite insert_eq. destruct (iprio it >? iprio new) eqn:Hp.
    + destruct Hb as (Hbl & Hbr & Hlt & Hgt), Hh as (Hhl & Hhr & Hlp & Hrp).
      (* the search for the new key takes the same turn as the insertion *)
      cbn [elems] in Hold. rewrite find_node, (cmp_opp _ laws (ikey it)) in Hold by exact Hlt.
      destruct (cmp (ikey it) (ikey new)); cbn [CompOpp] in Hold; rewrite heap_mk.
      * specialize (Hold it eq_refl). lia.
      * repeat split; auto. apply insert_root_prio; auto. lia.
      * repeat split; auto. apply insert_root_prio; auto. lia.
    + destruct (split cmp (T nl l il it nn nb r) (ikey new)) as [[l' m] r'] eqn:Hs.
      destruct (split_heap _ _ _ _ _ Hh Hs) as (H1 & H2 & H3).
      rewrite heap_mk. repeat split; auto; apply H3; cbn [root_prio_le]; lia.
Qed.

Lemma union_E_r : forall f t, union cmp (S f) t E = Some t.
Proof. intros f [|]; reflexivity. Qed.

Lemma split_single : forall it s,
  split cmp (single it) s =
  match cmp s (ikey it) with
  | Eq => (E, Some (None, it), E)
  | Lt => (E, None, single it)
  | Gt => (single it, None, E)
  end.
Proof. intros. unfold single. cbn [split]. destruct (cmp s (ikey it)); reflexivity. Qed.

Theorem union_single : forall f t it, (height t < f)%nat ->
  union cmp f t (single it) = Some (insert cmp t it).
Proof.
  induction f as [|f IH]; intros t new Hh; [lia|].
  destruct t as [|nl l il it nn nb r]; [reflexivity|].
  rewrite insert_eq. unfold single at 1. cbn [union]. fold (single new).
  cbn [height] in Hh. destruct f as [|f]; [lia|].
  destruct (iprio it >? iprio new).
  - rewrite split_single. destruct (cmp (ikey it) (ikey new)).
    + rewrite !union_E_r. reflexivity.
    + rewrite union_E_r, (IH r new) by lia. reflexivity.
    + rewrite union_E_r, (IH l new) by lia. reflexivity.
  - cbn [ikey]. destruct (split cmp (T nl l il it nn nb r) (ikey new)) as [[l0 m] r0].
    rewrite !union_E_r. reflexivity.
Qed.

Theorem set_item_spec : forall t key v prio, valid_item key (Some v) prio = true ->
  set_item cmp t key (Some v) prio = Some (insert cmp t (mkItem key v prio)).
Proof.
  intros t key v prio Hv. unfold set_item. rewrite Hv. apply union_single. lia.
Qed.

Theorem set_item_invalid : forall t key val prio, valid_item key val prio = false ->
  set_item cmp t key val prio = None.
Proof.
  intros t key val prio Hv. unfold set_item. destruct val; [|reflexivity].
  rewrite Hv. reflexivity.
Qed.

Theorem set_item_none : forall t key prio, set_item cmp t key None prio = None.
Proof. reflexivity. Qed.

Theorem lookup_spec : forall t k, bst cmp t -> lookup cmp t k = find cmp k (elems t).
Proof.
  intros t k. induction t as [|nl l IHl il it nn nb r IHr]; intro Hb.
  - reflexivity.
  - destruct Hb as (Hl & Hr & Hlt & Hgt). cbn [lookup elems]. rewrite find_node by exact Hlt.
    destruct (cmp k (ikey it)); auto.
Qed.

Theorem delete_spec : forall t k t' b, bst cmp t -> delete cmp t k = (t', b) ->
  elems t' = del cmp k (elems t) /\
  b = (match find cmp k (elems t) with Some _ => true | None => false end) /\
  bst cmp t' /\ (aggs t -> aggs t') /\ (heap t -> heap t').
Proof.
  intros t k t' b Hb Hd. pose proof (delete_aggs t k) as Ha. rewrite Hd in Ha. unfold delete in Hd.
  rewrite (lookup_spec t k Hb) in Hd.
  destruct (find cmp k (elems t)) as [old|] eqn:Hf.
  - destruct (split cmp t k) as [[l m] r] eqn:Hs.
    destruct (split_spec _ _ _ _ _ Hb Hs) as (He & Hbl & Hbr & Hal & Hag & Hm).
    rewrite He in Hf |- *. destruct m as [[il i]|]; cbn [mid app] in Hf |- *.
    + injection Hd as <- <-.
      rewrite join_elems, del_app by exact Hal. cbn [del].
      rewrite (proj1 (Hm il i eq_refl)).
      repeat split; auto.
      * apply join_bst; auto. intros x y Hx Hy.
        unfold all_lt, all_gt in Hal, Hag. rewrite Forall_forall in Hal, Hag.
        eapply (cmp_lt_trans _ laws); [apply Hal | apply Hag]; auto.
      * intro Hh. destruct (split_heap _ _ _ _ _ Hh Hs) as (H1 & H2 & _). apply join_heap; auto.
    + (* a key that is found is the middle of the split *)
      rewrite find_app, find_all_gt in Hf by assumption. discriminate.
  - injection Hd as <- <-. repeat split; auto.
    symmetry. apply del_find_none. exact Hf.
Qed.

Theorem treap_unique : forall a b, bst cmp a -> bst cmp b -> heap a -> heap b ->
  elems a = elems b -> NoDup (map iprio (elems a)) -> shape_of a = shape_of b.
Proof. intros a b _ _. apply treap_unique_gen. Qed.

Fixpoint depths (t : tree) (d : Z) : list (item * Z) :=
  match t with
  | E => []
  | T _ l _ it _ _ r => depths l (d + 1) ++ (it, d) :: depths r (d + 1)
  end.

Theorem depths_elems : forall t d, map fst (depths t d) = elems t.
Proof.
  induction t as [|nl l IHl il it nn nb r IHr]; intro d; cbn [depths elems]; [reflexivity|].
  rewrite map_app. cbn [map fst]. rewrite IHl, IHr. reflexivity.
Qed.

Lemma depths_in : forall t d x, In x (depths t d) -> In (fst x) (elems t).
Proof. intros t d x H. rewrite <- (depths_elems t d). apply in_map. exact H. Qed.

(* the combination step of visitNodes at a node whose own item is delivered *)
Definition node_res (res1 : list (item * Z) * nat * bool) (x : item * Z)
    (k2 : nat -> list (item * Z) * nat * bool) : list (item * Z) * nat * bool :=
  let '(d1, b1, k1) := res1 in
  if k1 then
    match b1 with
    | O => (d1 ++ [x], O, false)
    | S b' => let '(d2, b2, k2') := k2 b' in (d1 ++ x :: d2, b2, k2')
    end
  else (d1, b1, false).

(* what a visit with budget b returns when the full delivery list is [full]:
   the first b+1 deliveries, the budget left, and whether it ran to the end *)
Definition vout (full : list (item * Z)) (b : nat) : list (item * Z) * nat * bool :=
  (firstn (S b) full, (b - length full)%nat, (length full <=? b)%nat).

Lemma vout_nil : forall b, vout [] b = ([], b, true).
Proof. intros [|b]; reflexivity. Qed.

(* by induction on f1: a delivery before x costs both sides one unit of budget *)
Lemma vout_node : forall f1 f2 x b,
  node_res (vout f1 b) x (vout f2) = vout (f1 ++ x :: f2) b.
Proof.
  induction f1 as [|y f1 IH]; intros f2 x [|b]; try reflexivity.
  change (vout ((y :: f1) ++ x :: f2) (S b))
    with (let '(d, b', k) := vout (f1 ++ x :: f2) b in (y :: d, b', k)).
  rewrite <- IH. unfold vout, node_res. cbn [length Nat.leb Nat.sub firstn].
  destruct (length f1 <=? b)%nat, (b - length f1)%nat; reflexivity.
Qed.

Lemma node_res_ext : forall res x k k', (forall b, k b = k' b) -> node_res res x k = node_res res x k'.
Proof. intros [[d1 [|b1]] [|]] x k k' H; cbn [node_res]; rewrite ?H; reflexivity. Qed.

(* Both directions at once: [asc] chooses which items are kept, in which order
   the deliveries come and which child is visited first. *)
Definition keep (asc : bool) (target : bytes) (x : item * Z) : bool :=
  match cmp target (ikey (fst x)) with Gt => negb asc | _ => asc end.
Definition order (asc : bool) (l : list (item * Z)) : list (item * Z) := if asc then l else rev l.

Lemma order_node : forall asc l x r,
  order asc (l ++ x :: r) =
  order asc (if asc then l else r) ++ x :: order asc (if asc then r else l).
Proof.
  intros [|] l x r; cbn [order]; [reflexivity|].
  rewrite rev_app_distr. cbn [rev]. rewrite <- app_assoc. reflexivity.
Qed.

Lemma visit_eq : forall asc nl l il it nn nb r target d b,
  visit cmp asc (T nl l il it nn nb r) target d b =
  if keep asc target (it, d)
  then node_res (visit cmp asc (if asc then l else r) target (d + 1) b) (it, d)
                (fun b' => visit cmp asc (if asc then r else l) target (d + 1) b')
  else visit cmp asc (if asc then r else l) target (d + 1) b.
Proof.
  intros. cbn [visit]. unfold keep. cbn [fst].
  destruct asc, (cmp target (ikey it)); reflexivity.
Qed.

(* beyond a node that is not delivered nothing is delivered *)
Lemma keep_none : forall asc target it t d,
  keep asc target (it, d) = false ->
  (if asc then all_lt cmp (elems t) (ikey it) else all_gt cmp (elems t) (ikey it)) ->
  filter (keep asc target) (order asc (depths t d)) = [].
Proof.
  intros asc target it t d Hk Hf. apply filter_nil. intros x Hx.
  assert (Hi : In (fst x) (elems t)).
  { apply (depths_in t d). destruct asc; [exact Hx | apply in_rev; exact Hx]. }
  unfold keep in *. cbn [fst] in Hk.
  destruct asc; unfold all_lt, all_gt, klt in Hf; rewrite Forall_forall in Hf; specialize (Hf _ Hi);
    destruct (cmp target (ikey it)) eqn:Hc; try discriminate Hk.
  - rewrite (cmp_lt_gt _ _ (cmp_lt_trans _ laws _ _ _ Hf (cmp_gt_lt _ _ Hc))). reflexivity.
  - rewrite (cmp_eq_l _ laws _ _ _ Hc), Hf. reflexivity.
  - rewrite (cmp_lt_trans _ laws _ _ _ Hc Hf). reflexivity.
Qed.

Theorem visit_vout : forall asc t, bst cmp t -> forall target d b,
  visit cmp asc t target d b = vout (filter (keep asc target) (order asc (depths t d))) b.
Proof.
  intros asc. induction t as [|nl l IHl il it nn nb r IHr]; intros Hb target d b.
  - destruct asc; symmetry; apply vout_nil.
  - destruct Hb as (Hl & Hr & Hlt & Hgt).
    rewrite visit_eq. cbn [depths]. rewrite order_node, filter_app. cbn [filter].
    destruct (keep asc target (it, d)) eqn:K.
    + rewrite <- vout_node. destruct asc.
      * rewrite IHl by exact Hl. apply node_res_ext. intro b'. apply IHr. exact Hr.
      * rewrite IHr by exact Hr. apply node_res_ext. intro b'. apply IHl. exact Hl.
    + destruct asc.
      * rewrite (keep_none true target it l) by assumption. apply IHr. exact Hr.
      * rewrite (keep_none false target it r) by assumption. apply IHl. exact Hl.
Qed.

Theorem visit_asc_spec : forall t, bst cmp t -> forall target d b,
  fst (fst (visit cmp true t target d b)) =
  firstn (S b) (filter (fun x => match cmp target (ikey (fst x)) with Gt => false | _ => true end)
                       (depths t d)).
Proof. intros t Hb target d b. rewrite (visit_vout true t Hb). reflexivity. Qed.

Theorem visit_desc_spec : forall t, bst cmp t -> forall target d b,
  fst (fst (visit cmp false t target d b)) =
  firstn (S b) (filter (fun x => match cmp target (ikey (fst x)) with Gt => true | _ => false end)
                       (rev (depths t d))).
Proof. intros t Hb target d b. rewrite (visit_vout false t Hb). reflexivity. Qed.

End Proofs.

(* the side condition of insert_heap cannot be dropped *)
Theorem heap_refuted_lower_overwrite :
  exists t it, bst cmp_bytes t /\ heap t /\ ~ heap (insert cmp_bytes t it).
Proof.
  exists (T None (single (mkItem [1%N] [] 5)) None (mkItem [2%N] [] 10) 2 2 E).
  exists (mkItem [2%N] [] 1).
  split; [|split].
  - cbn. repeat split; repeat constructor.
  - cbn. lia.
  - cbn. intros (_ & _ & H & _). lia.
Qed.
