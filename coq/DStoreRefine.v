(* DStoreRefine.v — the byte-level store DStore.drun refines the abstract store Store.run:
   re-opening the file yields the state of the most recent Flush, FlushRevert walks back
   one Flush, whatever happened in between (C02 / C08 over whole histories).

   The answers are proved equal, not only equal up to StoreSpec.erase.  Side conditions on a
   history (history_ok, boolean, evaluated along the byte-level run):
     - (h1) collection names are ASCII (name_okb), (h2) items are encodable (item_okb);
     - (h3) at every Flush the new store size is below 2^63 and the root record fits its 32-bit
       length field;
     - (h3') at every Flush the aggregates numNodes / numBytes of every current collection are
       below 2^64 (they are written as 8-byte integers; DiskProofs.tree_ok, a precondition of the
       Flush lemmas, requires it and insert/join create nodes whose aggregates are sums);
     - (h4) is only required where it cannot be derived: for the bytes appended by a Flush (no
       valid root record ends strictly between the old store size and the end of the new root
       record); that all other positions carry no spurious root is then an invariant (R_roots),
       so the list of real root ends is a parameter of R only and history_ok does not mention it.
   The simulation is proved once, for the relation R' that allows a dirty tail and junk after a
   failed Flush (DFaultRefine.v); R, whose fields the theorems of Props/ name, is R' on a store
   whose file ends at the last root record (R_iff). *)
From GK Require Import Base Order Treap TreapSpec Store StoreSpec StoreRefine Codec CodecProofs
  Disk DiskProofs DStore.
Open Scope Z_scope.

(* two functions are called [erase]: on trees (forget the persisted locations, DiskProofs) and
   on outputs (forget the visit depths, StoreSpec) *)
Notation terase := DiskProofs.erase.
Notation oerase := StoreSpec.erase.

Lemma terase_mk l il it r : terase (mk l il it r) = mk (terase l) None it (terase r).
Proof. unfold mk. cbn [DiskProofs.erase]. rewrite !erase_num, !erase_nby. reflexivity. Qed.

Lemma terase_single it : terase (single it) = single it.
Proof. reflexivity. Qed.

Lemma terase_idem t : terase (terase t) = terase t.
Proof.
  induction t as [|nl l IHl il it nn nb r IHr]; cbn [DiskProofs.erase]; [reflexivity|].
  rewrite IHl, IHr. reflexivity.
Qed.

Definition emid (m : option (option ploc * item)) : option (option ploc * item) :=
  option_map (fun p => (@None ploc, snd p)) m.

Section EraseOps.
Variable cmp : bytes -> bytes -> comparison.

Lemma split_terase : forall t s,
  split cmp (terase t) s = let '(l, m, r) := split cmp t s in (terase l, emid m, terase r).
Proof.
  induction t as [|nl tl IHl il it nn nb tr IHr]; intro s; [reflexivity|].
  cbn [DiskProofs.erase]. rewrite !split_eq.
  destruct (cmp s (ikey it)); [reflexivity| |].
  - destruct tl as [|nl' a il' it' nn' nb' b]; [reflexivity|].
    cbn [DiskProofs.erase] in *. rewrite IHl.
    destruct (split cmp (T nl' a il' it' nn' nb' b) s) as [[ll m] lr]. rewrite terase_mk. reflexivity.
  - destruct tr as [|nl' a il' it' nn' nb' b]; [reflexivity|].
    cbn [DiskProofs.erase] in *. rewrite IHr.
    destruct (split cmp (T nl' a il' it' nn' nb' b) s) as [[rl m] rr]. rewrite terase_mk. reflexivity.
Qed.

Lemma join_terase : forall a b, join (terase a) (terase b) = terase (join a b).
Proof.
  induction a as [|n1 tl IHtl til ti nn1 nb1 tr IHtr]; intro b.
  - cbn [DiskProofs.erase]. rewrite !join_E_l. reflexivity.
  - induction b as [|n2 al IHal ail ai nn2 nb2 ar IHar].
    + rewrite join_E_r. cbn [DiskProofs.erase]. rewrite join_E_r. reflexivity.
    + rewrite (join_eq n1). cbn [DiskProofs.erase]. rewrite join_eq.
      destruct (iprio ti >? iprio ai).
      * rewrite terase_mk. f_equal. exact (IHtr (T n2 al ail ai nn2 nb2 ar)).
      * rewrite terase_mk. f_equal. exact IHal.
Qed.

Lemma insert_terase : forall t new, insert cmp (terase t) new = terase (insert cmp t new).
Proof.
  induction t as [|nl l IHl il it nn nb r IHr]; intro new; [reflexivity|].
  cbn [DiskProofs.erase]. rewrite !insert_eq.
  destruct (iprio it >? iprio new).
  - destruct (cmp (ikey it) (ikey new)); rewrite terase_mk.
    + reflexivity.
    + rewrite IHr. reflexivity.
    + rewrite IHl. reflexivity.
  - pose proof (split_terase (T nl l il it nn nb r) (ikey new)) as Hs.
    cbn [DiskProofs.erase] in Hs. rewrite Hs.
    destruct (split cmp (T nl l il it nn nb r) (ikey new)) as [[l' m'] r'].
    rewrite terase_mk. reflexivity.
Qed.

Lemma lookup_terase : forall t k, lookup cmp (terase t) k = lookup cmp t k.
Proof.
  induction t as [|nl l IHl il it nn nb r IHr]; intro k; cbn [DiskProofs.erase lookup]; [reflexivity|].
  destruct (cmp k (ikey it)); auto.
Qed.

Lemma set_item_terase : forall t key val prio,
  set_item cmp (terase t) key val prio = option_map terase (set_item cmp t key val prio).
Proof.
  intros t key [v|] prio.
  - destruct (valid_item key (Some v) prio) eqn:V.
    + rewrite !(set_item_spec cmp _ key v prio V). cbn [option_map]. rewrite insert_terase. reflexivity.
    + rewrite !(set_item_invalid cmp _ key (Some v) prio V). reflexivity.
  - rewrite !set_item_none. reflexivity.
Qed.

Lemma delete_terase : forall t k,
  delete cmp (terase t) k = (terase (fst (delete cmp t k)), snd (delete cmp t k)).
Proof.
  intros t k. unfold delete. rewrite lookup_terase.
  destruct (lookup cmp t k); [|reflexivity].
  rewrite split_terase. destruct (split cmp t k) as [[l m] r].
  destruct m as [[il0 i0]|]; cbn [emid option_map fst snd]; [|reflexivity].
  rewrite join_terase. reflexivity.
Qed.

Lemma visit_terase : forall t asc target d b,
  visit cmp asc (terase t) target d b = visit cmp asc t target d b.
Proof.
  induction t as [|nl l IHl il it nn nb r IHr]; intros asc target d b; [reflexivity|].
  cbn [DiskProofs.erase]. rewrite !visit_eq.
  destruct (keep cmp asc target (it, d)).
  - destruct asc; [rewrite IHl | rewrite IHr]; apply node_res_ext; intro b'; [apply IHr | apply IHl].
  - destruct asc; [apply IHr | apply IHl].
Qed.

End EraseOps.

Lemma tmin_terase : forall t, tmin (terase t) = tmin t.
Proof.
  induction t as [|nl l IHl il it nn nb r IHr]; cbn [DiskProofs.erase tmin]; [reflexivity|].
  rewrite <- IHl. destruct l; reflexivity.
Qed.

Lemma tmax_terase : forall t, tmax (terase t) = tmax t.
Proof.
  induction t as [|nl l IHl il it nn nb r IHr]; cbn [DiskProofs.erase tmax]; [reflexivity|].
  rewrite <- IHr. destruct r; reflexivity.
Qed.

Lemma totals_terase : forall t, totals (terase t) = totals t.
Proof. intro t. unfold totals. rewrite erase_num, erase_nby. reflexivity. Qed.

(* the store with all locations erased; Store.step commutes with it *)
Definition ecoll (c : coll) : coll := mkColl (c_cmp c) (terase (c_tree c)).
Definition ecolls (cs : colls) : colls := kmap (fun _ => ecoll) cs.
Definition estore (s : store) : store :=
  mkStore (s_file s) (ecolls (s_cur s)) (map ecolls (s_flushed s)) (s_cmpreg s).

Lemma cget_ecolls cs n : cget (ecolls cs) n = option_map ecoll (cget cs n).
Proof. exact (cget_kmap (fun _ => ecoll) cs n). Qed.
Lemma ecolls_cset cs n c : ecolls (cset cs n c) = cset (ecolls cs) n (ecoll c).
Proof. exact (kmap_cset ecoll cs n c). Qed.
Lemma ecolls_cdel cs n : ecolls (cdel cs n) = cdel (ecolls cs) n.
Proof. exact (kmap_cdel ecoll cs n). Qed.
Lemma ecolls_fst cs : map fst (ecolls cs) = map fst cs.
Proof. exact (kmap_fst (fun _ => ecoll) cs). Qed.
Lemma ecolls_recmp reg cs : ecolls (recmp reg cs) = recmp reg (ecolls cs).
Proof.
  unfold ecolls, recmp, kmap. rewrite !map_map. apply map_ext. intros [k v]. reflexivity.
Qed.

Ltac st_cbn := cbn [s_file s_cur s_flushed s_cmpreg c_cmp c_tree option_map ecoll fst snd].

Theorem step_estore : forall s o,
  step (estore s) o = let '(s', r) := step s o in (estore s', r).
Proof.
  intros [f cur fl reg] o. unfold estore at 1. unfold step.
  destruct o; cbv beta zeta; unfold with_cur; st_cbn;
    try rewrite cget_ecolls;
    try (destruct (cget cur name) as [c|]; cbn [option_map]; st_cbn);
    unfold estore; st_cbn;
    rewrite ?ecolls_cset, ?ecolls_cdel, ?ecolls_fst, ?lookup_terase, ?tmin_terase,
      ?tmax_terase, ?totals_terase, ?erase_size; try reflexivity.
  - rewrite set_item_terase.
    destruct (set_item (cmp_of (c_cmp c)) (c_tree c) key val prio) as [t'|]; st_cbn;
      rewrite ?ecolls_cset; reflexivity.
  - rewrite delete_terase.
    destruct (delete (cmp_of (c_cmp c)) (c_tree c) key) as [t' b]. st_cbn. rewrite ecolls_cset. reflexivity.
  - destruct f; reflexivity.
  - destruct f; st_cbn; [|reflexivity]. rewrite ecolls_recmp. destruct fl; reflexivity.
  - destruct f; st_cbn; [|reflexivity]. rewrite ecolls_recmp. destruct fl as [|c0 [|c1 fl0]]; reflexivity.
  - rewrite visit_terase. unfold visit_budget. rewrite erase_size.
    destruct (visit (cmp_of (c_cmp c)) asc (c_tree c) target 0
                (match stop with Some n => n | None => size (c_tree c) end)) as [[d b1] k1].
    reflexivity.
Qed.

(* a non-disk operation changes neither the file flag nor the flushed states, and does not read the latter *)
Definition is_disk (o : op) : bool :=
  match o with OFlush | OReopen | ORevert => true | _ => false end.

Lemma step_nondisk s o : is_disk o = false ->
  s_file (fst (step s o)) = s_file s /\ s_flushed (fst (step s o)) = s_flushed s.
Proof. intros Hd. destruct (step_chg s o); try discriminate Hd; split; reflexivity. Qed.

Lemma step_frame b cur fl fl2 reg o : is_disk o = false ->
  step (mkStore b cur fl2 reg) o =
  (let '(s', r) := step (mkStore b cur fl reg) o in (mkStore b (s_cur s') fl2 (s_cmpreg s'), r)).
Proof.
  intros Hd. destruct o; try discriminate Hd; unfold step, with_cur;
    cbn [s_file s_cur s_flushed s_cmpreg]; try reflexivity;
    destruct (cget cur name) as [c|]; try reflexivity.
  - destruct (set_item _ _ _ _ _); reflexivity.
  - destruct (delete _ _ _); reflexivity.
  - destruct (visit _ _ _ _ _ _) as [[d b1] k1]. reflexivity.
Qed.

Lemma dstep_nondisk : forall ds o, is_disk o = false ->
  dstep ds o =
  (let '(s', r) := step (mkStore true (d_cur ds) [] (d_cmpreg ds)) o in
   (mkDStore (d_file ds) (d_size ds) (s_cur s') (s_cmpreg s'), r)).
Proof. intros ds o H. destruct o; try discriminate H; reflexivity. Qed.

Lemma nondisk_same : forall dcur cur fl reg o s1 r1 s2 r2, is_disk o = false ->
  ecolls dcur = ecolls cur ->
  step (mkStore true dcur [] reg) o = (s1, r1) ->
  step (mkStore true cur fl reg) o = (s2, r2) ->
  r1 = r2 /\ ecolls (s_cur s1) = ecolls (s_cur s2) /\ s_cmpreg s1 = s_cmpreg s2.
Proof.
  intros dcur cur fl reg o s1 r1 s2 r2 Hd E H1 H2.
  pose proof (step_estore (mkStore true dcur [] reg) o) as E1.
  pose proof (step_estore (mkStore true cur fl reg) o) as E2.
  rewrite H1 in E1. rewrite H2 in E2. unfold estore in E1, E2.
  cbn [s_file s_cur s_flushed s_cmpreg map] in E1, E2. rewrite E in E1.
  rewrite (step_frame _ _ [] _ _ _ Hd), E1 in E2. cbn [s_cur s_cmpreg] in E2.
  inversion E2. auto.
Qed.

(* TreapSpec.parts_closed from its three clauses as separate hypotheses, the last one for every
   location-less node *)
Section Closed.
Variable cmp : bytes -> bytes -> comparison.
Variable P : tree -> Prop.
Variable Q : option ploc -> item -> Prop.
Hypothesis P_E : P E.
Hypothesis P_dec : forall nl l il it nn nb r, P (T nl l il it nn nb r) -> P l /\ P r /\ Q il it.
Hypothesis P_mk : forall l il it nn nb r, P l -> P r -> Q il it -> P (T None l il it nn nb r).

Lemma closed_parts : parts_closed P Q.
Proof. split; [exact P_E|]. split; [exact P_dec|]. intros. unfold mk. apply P_mk; assumption. Qed.

Lemma set_item_closed : forall t key val prio t',
  set_item cmp t key val prio = Some t' ->
  (forall v, val = Some v -> valid_item key val prio = true -> Q None (mkItem key v prio)) ->
  P t -> P t'.
Proof.
  intros t key [v|] prio t' H Hq Ht.
  - destruct (valid_item key (Some v) prio) eqn:V.
    + rewrite (set_item_spec cmp _ key v prio V) in H. inversion H; subst.
      apply (insert_parts cmp P Q closed_parts); auto.
    + rewrite (set_item_invalid cmp _ key (Some v) prio V) in H. discriminate.
  - rewrite set_item_none in H. discriminate.
Qed.

End Closed.

Lemma rep_dec f : forall nl l il it nn nb r, rep f (T nl l il it nn nb r) -> rep f l /\ rep f r /\ item_rep f il it.
Proof.
  intros nl l il it nn nb r H. pose proof (rep_children _ _ _ _ _ _ _ _ H). pose proof (rep_item _ _ _ _ _ _ _ _ H). tauto.
Qed.

Lemma rep_mk f : forall l il it nn nb r, rep f l -> rep f r -> item_rep f il it -> rep f (T None l il it nn nb r).
Proof. intros l il it nn nb r H1 H2 H3. cbn [rep]. split; [exact H1|]. split; [exact H2|]. exact H3. Qed.

Lemma below_dec b : forall nl l il it nn nb r, below (T nl l il it nn nb r) b ->
  below l b /\ below r b /\ loc_below il b.
Proof. intros nl l il it nn nb r H. apply below_children in H. tauto. Qed.

Lemma below_mk b : forall l il it (nn nb : Z) r, below l b -> below r b -> loc_below il b ->
  below (T None l il it nn nb r) b.
Proof. intros. cbn [below loc_below]. tauto. Qed.

Definition items_ok (t : tree) : Prop := Forall item_ok (elems t).

Lemma items_E : items_ok E.
Proof. constructor. Qed.

Lemma items_dec : forall nl l il it nn nb r, items_ok (T nl l il it nn nb r) ->
  items_ok l /\ items_ok r /\ item_ok it.
Proof.
  unfold items_ok. intros nl l il it nn nb r H. cbn [elems] in H.
  apply Forall_app in H. destruct H as [H1 H2]. inversion H2; subst. auto.
Qed.

Lemma items_mk : forall l (il : option ploc) it (nn nb : Z) r, items_ok l -> items_ok r -> item_ok it ->
  items_ok (T None l il it nn nb r).
Proof.
  unfold items_ok. intros. cbn [elems]. apply Forall_app. split; [assumption|]. constructor; assumption.
Qed.

Lemma tree_parts f b :
  parts_closed (fun t => rep f t /\ below t b /\ items_ok t)
               (fun il it => item_rep f il it /\ loc_below il b /\ item_ok it).
Proof.
  apply parts_and; [|apply parts_and].
  - apply closed_parts; [exact I | apply rep_dec | apply rep_mk].
  - apply closed_parts; [exact I | apply below_dec | apply below_mk].
  - apply closed_parts; [exact items_E | exact items_dec | exact items_mk].
Qed.

(* insert and delete do not increase the number of nodes of t at offset o (TreapSpec, Section
   Weights), hence the no-sharing invariant NoDup (node_offs t) is preserved *)
Definition cnt (o : Z) (t : tree) : nat := count_occ Z.eq_dec (node_offs t) o.

Lemma cnt_T o nl l il it nn nb r :
  cnt o (T nl l il it nn nb r) = (count_occ Z.eq_dec (oloc_off nl) o + cnt o l + cnt o r)%nat.
Proof. unfold cnt. cbn [node_offs]. rewrite !count_occ_app. lia. Qed.

Lemma insert_cnt cmp t new o : (cnt o (insert cmp t new) <= cnt o t)%nat.
Proof.
  apply (insert_weight cmp (cnt o) (fun nl => count_occ Z.eq_dec (oloc_off nl) o) (fun _ _ => 0%nat));
    try reflexivity. intros. rewrite cnt_T. lia.
Qed.

Lemma delete_cnt cmp t k o : (cnt o (fst (delete cmp t k)) <= cnt o t)%nat.
Proof.
  apply (delete_weight cmp (cnt o) (fun nl => count_occ Z.eq_dec (oloc_off nl) o) (fun _ _ => 0%nat));
    try reflexivity. intros. rewrite cnt_T. lia.
Qed.

Lemma nodup_le t t' : (forall o, (cnt o t' <= cnt o t)%nat) -> NoDup (node_offs t) -> NoDup (node_offs t').
Proof.
  intros H Hn. apply (NoDup_count_occ Z.eq_dec). intro o. rewrite (NoDup_count_occ Z.eq_dec) in Hn.
  specialize (Hn o). specialize (H o). unfold cnt in H. lia.
Qed.

Definition tree_inv (f : file) (b : Z) (t : tree) : Prop :=
  rep f t /\ below t b /\ items_ok t /\ NoDup (node_offs t).

Lemma tree_inv_E f b : tree_inv f b E.
Proof. repeat split; try exact I. constructor. constructor. Qed.

Theorem insert_inv : forall cmp f b t new, item_ok new -> tree_inv f b t ->
  tree_inv f b (insert cmp t new).
Proof.
  intros cmp f b t new Hi (H1 & H2 & H3 & H4).
  destruct (insert_parts cmp _ _ (tree_parts f b) t new) as (G1 & G2 & G3); auto.
  { split; [intros q0 Hq; discriminate | split; [exact I | exact Hi]]. }
  repeat split; auto. eapply nodup_le; [|exact H4]. intro o. apply insert_cnt.
Qed.

Theorem delete_inv : forall cmp f b t k t' d, delete cmp t k = (t', d) -> tree_inv f b t ->
  tree_inv f b t'.
Proof.
  intros cmp f b t k t' d Hd (H1 & H2 & H3 & H4).
  change t' with (fst (t', d)). rewrite <- Hd.
  destruct (delete_parts cmp _ _ (tree_parts f b) t k) as (G1 & G2 & G3); auto.
  repeat split; auto. eapply nodup_le; [|exact H4]. intro o. apply delete_cnt.
Qed.

(* (h1) ASCII names *)
Definition name_okb (n : bytes) : bool := forallb (fun c => (c <? 128)%N) n.

Lemma name_okb_ok n : name_okb n = true -> name_ok n.
Proof.
  unfold name_okb, name_ok. intro H. rewrite forallb_forall in H. apply Forall_forall.
  intros c Hc. apply N.ltb_lt. auto.
Qed.

(* (h2) encodable items *)
Definition item_okb (it : item) : bool :=
  byte_ok (ikey it) && byte_ok (ival it) && (item_loc_len it <? two32) &&
  (- two31 <=? iprio it) && (iprio it <? two31).

Lemma item_okb_ok it : item_okb it = true -> item_ok it.
Proof.
  unfold item_okb, item_ok. rewrite !andb_true_iff, !Z.ltb_lt, Z.leb_le. tauto.
Qed.

(* (h3') the aggregates written into node records fit 8 bytes *)
Definition totals_okb (cs : colls) : bool :=
  forallb (fun nc => (num (c_tree (snd nc)) <? 2 ^ 64) && (nby (c_tree (snd nc)) <? 2 ^ 64)) cs.

(* (h4) no root record ends at lo+1 .. lo+n *)
Fixpoint no_root_in (f : file) (lo : Z) (n : nat) : bool :=
  match n with
  | O => true
  | S k => match root_at f (lo + Z.of_nat (S k)) with
           | None => no_root_in f lo k
           | Some _ => false
           end
  end.

Lemma no_root_in_spec f lo : forall n, no_root_in f lo n = true ->
  forall e, lo < e <= lo + Z.of_nat n -> root_at f e = None.
Proof.
  induction n as [|k IH]; intros H e He; [lia|].
  cbn [no_root_in] in H.
  destruct (root_at f (lo + Z.of_nat (S k))) eqn:Hr; [discriminate|].
  destruct (Z.eq_dec e (lo + Z.of_nat (S k))) as [->|Hne]; [exact Hr|].
  apply IH; [exact H | lia].
Qed.

(* the side conditions of one operation, evaluated in the byte-level state it is applied to:
   (h1) for OColl, (h2) for OSet, (h3) and (h3') for OFlush ... *)
Definition op_okb0 (ds : dstore) (o : op) : bool :=
  match o with
  | OColl name _ => name_okb name
  | OSet name key val prio =>
    match cget (d_cur ds) name, val with
    | Some _, Some v => if valid_item key val prio then item_okb (mkItem key v prio) else true
    | _, _ => true
    end
  | OFlush =>
    let ds' := fst (dstep ds OFlush) in
    totals_okb (d_cur ds) && (d_size ds' <? two63) &&
    (roots_len + blen (enc_json (root_map (d_cur ds'))) <? two32)
  | _ => true
  end.

(* ... and (h4): the bytes a Flush appends contain no look-alike root record, i.e. no valid
   root record ends strictly between the old store size and the end of the new root record *)
Definition roots_okb (ds : dstore) (o : op) : bool :=
  match o with
  | OFlush =>
    let ds' := fst (dstep ds OFlush) in
    no_root_in (d_file ds') (d_size ds) (Z.to_nat (d_size ds' - d_size ds - 1))
  | _ => true
  end.

Definition op_okb (ds : dstore) (o : op) : bool := op_okb0 ds o && roots_okb ds o.

Fixpoint dhist_ok (ds : dstore) (ops : list op) : bool :=
  match ops with
  | [] => true
  | o :: ops' => op_okb ds o && dhist_ok (fst (dstep ds o)) ops'
  end.

Definition history_ok (ops : list op) : Prop := dhist_ok dinit ops = true.

Lemma op_okb0_flush ds ds' r : dstep ds OFlush = (ds', r) -> op_okb0 ds OFlush = true ->
  totals_okb (d_cur ds) = true /\ d_size ds' < two63 /\
  roots_len + blen (enc_json (root_map (d_cur ds'))) < two32.
Proof.
  intros Hds Hok. unfold op_okb0 in Hok. rewrite Hds in Hok. cbn [fst] in Hok.
  rewrite !andb_true_iff, !Z.ltb_lt in Hok. tauto.
Qed.

Definition coll_inv (f : file) (b : Z) (nc : bytes * coll) : Prop :=
  name_ok (fst nc) /\ tree_inv f b (c_tree (snd nc)).

(* names and erased trees of a collection map / of a loaded root *)
Definition ekeys (cs : colls) : list (bytes * tree) :=
  map (fun nc => (fst nc, terase (c_tree (snd nc)))) cs.
Definition esnap (cs : list (bytes * tree)) : list (bytes * tree) :=
  map (fun nt => (fst nt, terase (snd nt))) cs.

(* the root record ending at e decodes to the trees cs, which are the flushed state st up to
   locations, and everything they refer to lies below e *)
Definition snap (f : file) (e : Z) (cs : list (bytes * tree)) (st : colls) : Prop :=
  root_at f e = Some (locs_of cs) /\
  Forall (fun nt => name_ok (fst nt) /\ persisted (snd nt) /\ tree_inv f e (snd nt)) cs /\
  esnap cs = ekeys st.

Definition snap_ok (f : file) (e : Z) (st : colls) : Prop := exists cs, snap f e cs st.

Fixpoint sdesc (l : list Z) : Prop :=
  match l with
  | [] => True
  | e :: l' => Forall (fun x => x < e) l' /\ sdesc l'
  end.

Record R (ds : dstore) (s : store) (ends : list Z) : Prop := mkR {
  R_file : s_file s = true;
  R_reg : d_cmpreg ds = s_cmpreg s;
  R_cur : ecolls (d_cur ds) = ecolls (s_cur s);
  R_len : blen (d_file ds) = d_size ds;
  R_size : d_size ds = hd 0 ends;
  R_inv : Forall (coll_inv (d_file ds) (d_size ds)) (d_cur ds);
  R_snaps : Forall2 (snap_ok (d_file ds)) ends (s_flushed s);
  R_desc : sdesc ends;
  R_roots : forall e, root_at (d_file ds) e <> None -> In e ends;
  R_wf : wf s
}.

Lemma root_at_nil e : root_at [] e = None.
Proof.
  destruct (root_at [] e) eqn:H; [|reflexivity].
  pose proof (root_at_le_blen _ _ _ H). pose proof (root_at_Some_gt _ _ _ H).
  rewrite blen_nil in *. change roots_len with 44 in *. lia.
Qed.

Theorem R_init : R dinit (init true) [].
Proof.
  constructor; cbn [dinit init s_file d_cmpreg s_cmpreg d_cur s_cur d_file d_size s_flushed hd];
    try reflexivity; try constructor.
  - intros e H. rewrite root_at_nil in H. congruence.
  - apply colls_wf_nil.
  - constructor.
Qed.

(* ends are the ends of all valid root records of f that end at or below b, newest first, and fl
   the states they hold *)
Definition roots (f : file) (b : Z) (ends : list Z) (fl : list colls) : Prop :=
  Forall2 (snap_ok f) ends fl /\ sdesc ends /\ forall e, e <= b -> root_at f e <> None -> In e ends.

(* R without "the file ends exactly at the last root record": the store size may have moved past
   the last root end (records of a Flush that failed) and bytes may lie beyond it (junk); every
   valid root record of the file is still one of the real ones.  R has the same fields (R'_roots
   as R_snaps, R_desc, R_roots) with R_len and R_size in place of R'_size: R_iff. *)
Record R' (ds : dstore) (s : store) (ends : list Z) : Prop := mkR' {
  R'_file : s_file s = true;
  R'_reg : d_cmpreg ds = s_cmpreg s;
  R'_cur : ecolls (d_cur ds) = ecolls (s_cur s);
  R'_size : hd 0 ends <= d_size ds <= blen (d_file ds);
  R'_inv : Forall (coll_inv (d_file ds) (d_size ds)) (d_cur ds);
  R'_roots : roots (d_file ds) (blen (d_file ds)) ends (s_flushed s);
  R'_wf : wf s
}.

Lemma R_iff ds s ends :
  R ds s ends <-> R' ds s ends /\ blen (d_file ds) = d_size ds /\ d_size ds = hd 0 ends.
Proof.
  split.
  - intros [H1 H2 H3 H4 H5 H6 H7 H8 H9 H10]. split; [constructor; auto; [lia | repeat split; auto] | auto].
  - intros ([H1 H2 H3 H4 H5 (H6 & H7 & H8) H9] & L & S). constructor; auto.
    intros e He. apply H8; [|exact He]. destruct (root_at (d_file ds) e) eqn:E; [|congruence].
    exact (root_at_le_blen _ _ _ E).
Qed.

Theorem R_R' ds s ends : R ds s ends -> R' ds s ends.
Proof. intro H. apply R_iff in H. apply H. Qed.

Theorem R'_init : R' dinit (init true) [].
Proof. apply R_R'. apply R_init. Qed.

Lemma R'_size_nonneg ds s ends : R' ds s ends -> 0 <= hd 0 ends.
Proof.
  intros H. destruct (proj1 (R'_roots _ _ _ H)) as [|e st ends' fl [cs (Hr & _)] _]; cbn [hd]; [lia|].
  apply root_at_Some_gt in Hr. change roots_len with 44 in Hr. lia.
Qed.

Lemma step_coll_inv : forall f b fb cur fl reg o s' r, is_disk o = false ->
  op_okb0 (mkDStore f b cur reg) o = true ->
  Forall (coll_inv f b) cur ->
  step (mkStore fb cur fl reg) o = (s', r) ->
  Forall (coll_inv f b) (s_cur s').
Proof.
  intros f b fb cur fl reg o s' r Hd Hok Hinv Hstep.
  assert (Hin : forall n c, cget cur n = Some c -> coll_inv f b (n, c)).
  { intros n c G. apply cget_In in G. rewrite Forall_forall in Hinv. auto. }
  rewrite (step_fst _ _ _ _ Hstep).
  destruct (step_chg (mkStore fb cur fl reg) o) as [o _|n id|n|n c key v prio G V|n c key G|F|F|F];
    try discriminate Hd; cbn [s_cur with_cur op_okb0 d_cur] in *; try exact Hinv.
  - apply Forall_cset; [exact Hinv|]. split; cbn [fst snd c_tree]; [apply name_okb_ok; exact Hok|].
    destruct (cget cur n) as [c|] eqn:G; [apply (Hin _ _ G) | apply tree_inv_E].
  - apply Forall_cdel. exact Hinv.
  - destruct (Hin _ _ G) as [Hn Ht]. rewrite G, V in Hok. apply Forall_cset; [exact Hinv|]. split; [exact Hn|].
    apply insert_inv; [apply item_okb_ok; exact Hok | exact Ht].
  - destruct (Hin _ _ G) as [Hn Ht]. apply Forall_cset; [exact Hinv|]. split; [exact Hn|].
    cbn [fst snd c_tree] in *. destruct (delete _ _ key) as [t' d] eqn:Hdel. eapply delete_inv; eauto.
Qed.

Theorem sim'_nondisk : forall ds s ends o ds' r s' r', is_disk o = false ->
  R' ds s ends -> op_okb0 ds o = true -> ops_ok (s_cmpreg s) [o] ->
  dstep ds o = (ds', r) -> step s o = (s', r') ->
  r = r' /\ R' ds' s' ends /\ d_file ds' = d_file ds /\ d_size ds' = d_size ds.
Proof.
  intros [f size dcur dreg] [fb cur fl reg] ends o ds' r s' r' Hd HR Hok Hops Hds Hs.
  destruct HR as [Rf Rreg Rcur Rsize Rinv Rroots Rwf].
  cbn [s_file d_cmpreg s_cmpreg d_cur s_cur d_file d_size s_flushed] in *. subst fb dreg.
  rewrite (dstep_nondisk _ _ Hd) in Hds. cbn [d_cur d_cmpreg d_file d_size] in Hds.
  destruct (step (mkStore true dcur [] reg) o) as [s1 r1] eqn:H1.
  inversion Hds; subst ds' r; clear Hds.
  destruct (nondisk_same _ _ _ _ _ _ _ _ _ Hd Rcur H1 Hs) as (Er & Ec & Ereg).
  destruct (step_nondisk (mkStore true cur fl reg) o Hd) as (Sf & Sfl).
  rewrite <- (step_fst _ _ _ _ Hs) in Sf, Sfl. cbn [s_file s_flushed] in Sf, Sfl.
  destruct (step_refines _ _ _ _ Rwf Hops Hs) as [Hwf' _].
  split; [exact Er|]. split; [|split; reflexivity].
  constructor; cbn [s_file d_cmpreg s_cmpreg d_cur s_cur d_file d_size s_flushed]; auto.
  - exact (step_coll_inv _ _ _ _ _ _ _ _ _ Hd Hok Rinv H1).
  - rewrite Sfl. exact Rroots.
Qed.

Lemma sum_bytes_nonneg l : 0 <= sum_bytes l.
Proof.
  induction l as [|x l IH]; cbn [sum_bytes fold_right]; [lia|].
  fold (sum_bytes l). unfold item_bytes.
  pose proof (blen_nonneg (ikey x)). pose proof (blen_nonneg (ival x)). lia.
Qed.

(* with exact aggregates, the bounds at the root bound every node *)
Lemma aggs_tree_ok : forall t, aggs t -> items_ok t -> num t < 2 ^ 64 -> nby t < 2 ^ 64 -> tree_ok t.
Proof.
  set (M := 2 ^ 64).
  induction t as [|nl l IHl il it nn nb r IHr]; intros Ha Hi Hn Hb; [exact I|].
  destruct (items_dec _ _ _ _ _ _ _ Hi) as (Il & Ir & Iit).
  cbn [aggs] in Ha. destruct Ha as (Al & Ar & An & Ab).
  cbn [num nby] in Hn, Hb.
  destruct (aggs_num _ Al) as [Nl Bl]. destruct (aggs_num _ Ar) as [Nr Br].
  cbn [size elems] in An, Ab. rewrite sum_bytes_app in Ab.
  pose proof (sum_bytes_nonneg (elems l)). pose proof (sum_bytes_nonneg (elems r)).
  assert (0 <= item_bytes it).
  { unfold item_bytes. pose proof (blen_nonneg (ikey it)). pose proof (blen_nonneg (ival it)). lia. }
  cbn [tree_ok]. fold M.
  split; [exact Iit|]. split; [lia|]. split; [lia|].
  split; [apply IHl; auto; lia | apply IHr; auto; lia].
Qed.

Lemma tree_ok_items : forall t, tree_ok t -> items_ok t.
Proof.
  induction t as [|nl l IHl il it nn nb r IHr]; intro H; [constructor|].
  cbn [tree_ok] in H. destruct H as (H1 & _ & _ & H4 & H5).
  unfold items_ok in *. cbn [elems]. apply Forall_app. split; [auto|]. constructor; auto.
Qed.

(* the current trees of the byte-level store have exact aggregates, as the model's have *)
Lemma dcur_aggs : forall reg dcur cur n c, ecolls dcur = ecolls cur -> colls_wf reg cur ->
  In (n, c) dcur -> aggs (c_tree c).
Proof.
  intros reg dcur cur n c E [Hs Hc] Hin.
  apply (in_map (fun nc => (fst nc, ecoll (snd nc)))) in Hin. change (In (n, ecoll c) (ecolls dcur)) in Hin.
  rewrite E in Hin. apply in_map_iff in Hin. destruct Hin as ([n2 c2] & Heq & Hin).
  cbn [fst snd] in Heq. inversion Heq as [[Hn Hcmp Ht]]. subst n2.
  destruct (Hc _ _ (In_cget _ _ _ Hs Hin)) as [[_ Ha] _].
  exact (erase_eq_aggs _ _ (eq_sym Ht) Ha).
Qed.

Lemma decode_store_inv f e cs : decode_store f = OpOk e cs ->
  root_at f e = Some (locs_of cs) /\ Forall (fun nt => persisted (snd nt)) cs.
Proof.
  unfold decode_store. destruct (blen f =? 0); [discriminate|].
  destruct (scan f (blen f)) as [| |e0 m] eqn:Hs; try discriminate.
  destruct (load_all f m e0) as [cs0|] eqn:Hl; [|discriminate].
  intro H. inversion H; subst e0 cs0.
  destruct (scan_found _ _ _ _ Hs) as (_ & _ & Hr & _).
  destruct (load_all_inv _ _ _ _ Hl) as [Hm Hp]. subst m. split; [exact Hr|].
  eapply Forall_impl; [|exact Hp]. intros a [Ha _]. exact Ha.
Qed.

Lemma coll_post_ecolls f s cs cs' : Forall2 (coll_post f s) cs cs' -> ecolls cs' = ecolls cs.
Proof.
  unfold ecolls, kmap. apply Forall2_map_eq.
  intros [n c] [n' c'] (P1 & P2 & _ & _ & _ & P6). cbn [fst snd] in *. subst n'.
  unfold ecoll. rewrite P2, P6. reflexivity.
Qed.

Lemma ekeys_ecolls a : ekeys a = map (fun nc => (fst nc, c_tree (snd nc))) (ecolls a).
Proof. unfold ekeys, ecolls, kmap. rewrite map_map. reflexivity. Qed.

Lemma ecolls_ekeys a b : ecolls a = ecolls b -> ekeys a = ekeys b.
Proof. intro H. rewrite !ekeys_ecolls, H. reflexivity. Qed.

Lemma esnap_tmap cs : esnap (tmap cs) = ekeys cs.
Proof. unfold esnap, tmap, ekeys. rewrite map_map. reflexivity. Qed.

Lemma tree_inv_stable f f' b b' t : tree_inv f b t -> agree f f' b -> b <= b' -> tree_inv f' b' t.
Proof.
  intros (H1 & H2 & H3 & H4) Ha Hb. repeat split; auto.
  - eapply rep_stable; eauto.
  - eapply below_mono; eauto.
Qed.

(* the trees cs, represented below e, are the state st up to locations: what a root record ending
   at e holds, and what the store holds once it has been loaded *)
Definition loaded (f : file) (e : Z) (cs : list (bytes * tree)) (st : colls) : Prop :=
  Forall (fun nt => name_ok (fst nt) /\ persisted (snd nt) /\ tree_inv f e (snd nt)) cs /\
  esnap cs = ekeys st.

Lemma loaded_stable f f' e cs st : loaded f e cs st -> agree f f' e -> loaded f' e cs st.
Proof.
  intros (H2 & H3) Ha. split; [|exact H3].
  eapply Forall_impl; [|exact H2]. intros nt (A & B & C). split; [exact A|]. split; [exact B|].
  eapply tree_inv_stable; eauto. lia.
Qed.

Lemma snap_stable f f' e cs st : snap f e cs st -> agree f f' e -> snap f' e cs st.
Proof.
  intros (H1 & H2) Ha. split; [|exact (loaded_stable _ _ _ _ _ H2 Ha)].
  rewrite (root_at_agree f f' e Ha). exact H1.
Qed.

Lemma ends_le ends x : sdesc ends -> In x ends -> x <= hd 0 ends.
Proof.
  destruct ends as [|e l]; intros Hs Hin; [destruct Hin|].
  cbn [hd]. destruct Hin as [->|Hin]; [lia|].
  destruct Hs as [H _]. rewrite Forall_forall in H. specialize (H _ Hin). lia.
Qed.

(* the root ends stay what they are when the file changes only above the last one and no root
   record ends there *)
Lemma roots_ext f f' b b' ends fl : roots f b ends fl -> hd 0 ends <= b -> agree f f' (hd 0 ends) ->
  (forall e, hd 0 ends < e <= b' -> root_at f' e = None) -> roots f' b' ends fl.
Proof.
  intros (Hs & Hd & Hr) Hb Ha Hn. split; [|split; [exact Hd|]].
  - revert Hs. apply Forall2_impl_In. intros e st Hin [cs H]. exists cs.
    apply (snap_stable f); [exact H|]. apply (agree_mono _ _ _ _ Ha), ends_le; assumption.
  - intros e He Hre. destruct (Z_le_gt_dec e (hd 0 ends)) as [Hle|Hgt].
    + apply Hr; [lia|]. rewrite <- (root_at_agree f f' e (agree_mono _ _ _ _ Ha Hle)). exact Hre.
    + rewrite Hn in Hre by lia. congruence.
Qed.

Lemma roots_cons f e ends fl st : roots f (e - 1) ends fl -> hd 0 ends < e -> snap_ok f e st ->
  roots f e (e :: ends) (st :: fl).
Proof.
  intros (Hs & Hd & Hr) He Hsn. split; [constructor; assumption|]. split.
  - split; [|exact Hd]. apply Forall_forall. intros x Hin. apply (ends_le _ _ Hd) in Hin. lia.
  - intros x Hx Hrx. destruct (Z.eq_dec x e) as [->|Hne]; [left; reflexivity|]. right. apply Hr; [lia|exact Hrx].
Qed.

(* below the last root end, as far as FlushRevert scans, are the root ends before it *)
Lemma roots_tl f b ends fl : roots f b ends fl -> hd 0 ends <= b ->
  let b' := if roots_len <? hd 0 ends then hd 0 ends - 1 else hd 0 ends in
  roots f b' (tl ends) (tl fl) /\ hd 0 (tl ends) <= b' <= hd 0 ends.
Proof.
  intros (Hs & Hd & Hr) Hb. destruct Hs as [|e st ends' fl' [cs (Hroot & _)] Hs]; cbn [hd tl] in *.
  - split; [|cbn; lia]. split; [constructor|]. split; [exact I|]. intros e He. apply Hr. cbn in He. lia.
  - pose proof (root_at_Some_gt _ _ _ Hroot) as Hgt. rewrite Zltb_t by assumption. destruct Hd as [Hlt Hd]. split.
    + split; [exact Hs|]. split; [exact Hd|].
      intros x Hx Hrx. destruct (Hr x) as [Heq|Hin]; [lia|exact Hrx|lia|exact Hin].
    + rewrite roots_len_eq in Hgt. destruct Hlt as [|ep ends' Hep _]; cbn [hd]; lia.
Qed.

(* the preconditions of the Flush lemmas *)
Lemma R'_coll_ok ds s ends : R' ds s ends -> totals_okb (d_cur ds) = true ->
  Forall (coll_ok (d_file ds) (d_size ds)) (d_cur ds) /\
  Forall (fun nc => NoDup (node_offs (c_tree (snd nc)))) (d_cur ds).
Proof.
  intros HR Htot. pose proof (R'_inv _ _ _ HR) as Rinv. pose proof (R'_cur _ _ _ HR) as Rcur.
  pose proof (R'_wf _ _ _ HR) as Rwf. split.
  - apply Forall_forall. intros [n c] Hin.
    rewrite Forall_forall in Rinv. destruct (Rinv _ Hin) as (Hn & Hrep & Hbel & Hit & Hnd).
    cbn [fst snd] in *. unfold coll_ok. cbn [fst snd]. repeat split; auto.
    unfold totals_okb in Htot. rewrite forallb_forall in Htot. specialize (Htot _ Hin).
    cbn [snd] in Htot. apply andb_prop in Htot. destruct Htot as [T1 T2]. apply Z.ltb_lt in T1, T2.
    apply aggs_tree_ok; auto.
    eapply dcur_aggs; [exact Rcur | exact (proj1 Rwf) | exact Hin].
  - eapply Forall_impl; [|exact Rinv]. intros nc (_ & _ & _ & _ & H). exact H.
Qed.

Lemma coll_ok_inv f b cs : Forall (coll_ok f b) cs ->
  Forall (fun nc => NoDup (node_offs (c_tree (snd nc)))) cs -> Forall (coll_inv f b) cs.
Proof.
  intros H1 H2. apply Forall_forall. intros nc Hin. rewrite Forall_forall in H1, H2.
  destruct (H1 _ Hin) as (C1 & C2 & C3 & C4). specialize (H2 _ Hin).
  split; [exact C1|]. repeat split; auto. apply tree_ok_items. exact C4.
Qed.

(* Flush, possibly from a dirty state and over junk: no valid root record may end strictly between
   the last root end and the end of the new root record (h4), nor beyond it up to the end of the
   file (junk left over by a failed Flush that was longer than this one; there is none if the file
   ended at the store size) *)
Theorem sim'_flush : forall ds s ends ds' r s' r',
  R' ds s ends -> op_okb0 ds OFlush = true ->
  no_root_in (d_file ds') (hd 0 ends) (Z.to_nat (d_size ds' - hd 0 ends - 1)) = true ->
  blen (d_file ds) = d_size ds \/
  no_root_in (d_file ds') (d_size ds') (Z.to_nat (blen (d_file ds') - d_size ds')) = true ->
  ops_ok (s_cmpreg s) [OFlush] ->
  dstep ds OFlush = (ds', r) -> step s OFlush = (s', r') ->
  r = r' /\ R' ds' s' (d_size ds' :: ends) /\
  agree (d_file ds) (d_file ds') (d_size ds) /\ d_size ds + roots_len < d_size ds' /\
  (blen (d_file ds) = d_size ds -> blen (d_file ds') = d_size ds').
Proof.
  intros ds s ends ds' r s' r' HR Hok Hnr Hjunk Hops Hds Hs.
  pose proof (R'_size_nonneg _ _ _ HR) as Hlr0.
  destruct (op_okb0_flush _ _ _ Hds Hok) as (Htot & H63 & H32).
  destruct (R'_coll_ok _ _ _ HR Htot) as [Hcok Hnd].
  destruct (step_refines _ _ _ _ (R'_wf _ _ _ HR) Hops Hs) as [Hwf' _].
  destruct HR as [Rf Rreg Rcur Rsize _ Rroots _].
  cbn [dstep] in Hds. destruct (flush_bytes (d_file ds) (d_size ds) (d_cur ds)) as [[f' size'] cs'] eqn:Hfl.
  inversion Hds; subst ds' r; clear Hds. cbn [d_file d_size d_cur] in *.
  cbn [step] in Hs. rewrite Rf in Hs. inversion Hs; subst s' r'; clear Hs.
  assert (Hsz : 0 <= d_size ds <= blen (d_file ds)) by lia.
  destruct (flush_nodup_facts _ _ _ _ _ _ Hcok Hsz Hfl H63 Hnd) as (_ & G2 & G3).
  destruct (flush_spec _ _ _ _ _ _ Hcok Hsz Hfl H63) as ((Hag & Hbl & Hclean) & Hgrow & Hpost & Hroot).
  pose proof (coll_post_ecolls _ _ _ _ Hpost) as Hec.
  pose proof (coll_ok_inv _ _ _ G2 G3) as Rinv'.
  split; [reflexivity|]. split; [|auto].
  pose proof roots_len_eq.
  constructor; cbn [s_file d_cmpreg s_cmpreg d_cur s_cur d_file d_size s_flushed hd]; auto.
  - rewrite Hec. exact Rcur.
  - lia.
  - (* the old root ends up to the new record, the new one, none in the junk *)
    apply (roots_ext f' f' size'); [|cbn [hd]; lia|apply agree_refl|].
    2:{ cbn [hd]. intros e He.
        destruct Hjunk as [L|Hj]; [specialize (Hclean L) | apply (no_root_in_spec _ _ _ Hj)]; lia. }
    apply roots_cons; [|lia|].
    + apply (roots_ext (d_file ds) f' (blen (d_file ds))); [exact Rroots|lia| |].
      * apply (agree_mono _ _ _ _ Hag). lia.
      * intros e He. apply (no_root_in_spec _ _ _ Hnr). lia.
    + exists (tmap cs'). split; [rewrite <- root_map_locs; exact (Hroot H32)|]. split.
      * apply Forall_forall. intros nt Hin.
        unfold tmap in Hin. apply in_map_iff in Hin. destruct Hin as (nc' & <- & Hin).
        rewrite Forall_forall in Rinv'. destruct (Rinv' _ Hin) as [A B]. cbn [fst snd].
        split; [exact A|]. split; [|exact B].
        destruct (Forall2_in_r _ _ _ _ Hpost Hin) as (nc & _ & (_ & _ & P3 & _)). exact P3.
      * rewrite esnap_tmap. apply ecolls_ekeys. rewrite Hec. exact Rcur.
Qed.

Lemma loaded_load f e cs st : loaded f e cs st -> 0 <= e <= blen f ->
  load_all f (locs_of cs) e = Some cs.
Proof.
  intros (H & _) He. apply load_all_rep.
  eapply Forall_impl; [|exact H]. intros nt (_ & Hp & Hrep & Hbel & _ & Hnd).
  split; [exact Hrep|]. split; [exact Hp|]. split; [exact Hbel|].
  pose proof (size_le_offsets f _ e Hrep Hp Hbel Hnd) as Hs. unfold blen in He. lia.
Qed.

Lemma ecolls_loaded reg cs : ecolls (colls_of_loaded reg cs) = colls_of_loaded reg (esnap cs).
Proof. unfold ecolls, kmap, colls_of_loaded, esnap. rewrite !map_map. reflexivity. Qed.

Lemma ecolls_recmp_loaded reg st : ecolls (recmp reg st) = colls_of_loaded reg (ekeys st).
Proof. unfold ecolls, kmap, colls_of_loaded, recmp, ekeys. rewrite !map_map. reflexivity. Qed.

(* the clean store that re-opening and FlushRevert leave: the state of the last root record *)
Lemma R'_loaded f ends fl reg cs : roots f (blen f) ends fl -> hd 0 ends <= blen f ->
  loaded f (hd 0 ends) cs (hd [] fl) -> wf (mkStore true (recmp reg (hd [] fl)) fl reg) ->
  R' (mkDStore f (hd 0 ends) (colls_of_loaded reg cs) reg) (mkStore true (recmp reg (hd [] fl)) fl reg) ends.
Proof.
  intros Hr Hb (H & He) Hwf.
  constructor; cbn [s_file d_cmpreg s_cmpreg d_cur s_cur d_file d_size s_flushed]; auto.
  - rewrite ecolls_loaded, ecolls_recmp_loaded, He. reflexivity.
  - lia.
  - unfold colls_of_loaded. apply Forall_map.
    eapply Forall_impl; [|exact H]. intros nt (Hn & _ & Hi). split; cbn [fst snd c_tree]; assumption.
Qed.

(* a scan from b finds the last root record, or none if there is none *)
Lemma roots_scan f b ends fl : roots f b ends fl -> hd 0 ends <= b -> exists cs,
  0 <= hd 0 ends /\ loaded f (hd 0 ends) cs (hd [] fl) /\
  (scan f b = ScanFound (hd 0 ends) (locs_of cs) \/ scan f b = ScanNone /\ ends = [] /\ cs = []).
Proof.
  intros (Hs & Hd & Hr) Hb.
  assert (Ha : forall e, hd 0 ends < e <= b -> root_at f e = None).
  { intros e He. destruct (root_at f e) eqn:E; [|reflexivity].
    assert (Hin : In e ends) by (apply Hr; [lia | congruence]). apply (ends_le _ _ Hd) in Hin. lia. }
  destruct Hs as [|e st ends' fl' [cs (Hroot & Hl)] _]; cbn [hd] in *.
  - exists []. split; [reflexivity|]. split; [split; [constructor|reflexivity]|]. right. split; [|auto].
    apply scan_none_iff. intros e He. destruct (root_at f e) eqn:E; [|reflexivity].
    destruct (Hr e); [exact He|congruence].
  - exists cs. pose proof (root_at_Some_gt _ _ _ Hroot). pose proof roots_len_eq.
    split; [lia|]. split; [exact Hl|]. left. exact (scan_complete _ _ _ _ Hroot Hb Ha).
Qed.

(* the dirty tail and the junk are ignored, the store is clean again; a root record must exist or
   the file be empty (after a failed first Flush re-opening is an error on bytes) *)
Theorem sim'_reopen : forall ds s ends ds' r s' r',
  R' ds s ends -> (0 <? hd 0 ends) || (blen (d_file ds) =? 0) = true ->
  ops_ok (s_cmpreg s) [OReopen] ->
  dstep ds OReopen = (ds', r) -> step s OReopen = (s', r') ->
  r = r' /\ R' ds' s' ends /\ d_size ds' = hd 0 ends /\ d_file ds' = d_file ds.
Proof.
  intros ds s ends ds' r s' r' HR Hok Hops Hds Hs.
  destruct (step_refines _ _ _ _ (R'_wf _ _ _ HR) Hops Hs) as [Hwf' _].
  destruct HR as [Rf Rreg _ Rsize _ Rroots _].
  cbn [step] in Hs. unfold with_cur in Hs. rewrite Rf in Hs. inversion Hs; subst s' r'; clear Hs.
  destruct (roots_scan _ _ _ _ Rroots) as (cs & H0 & Hl & Hsc); [lia|].
  assert (E : dstep ds OReopen =
              (mkDStore (d_file ds) (hd 0 ends) (colls_of_loaded (d_cmpreg ds) cs) (d_cmpreg ds), ROk)).
  { cbn [dstep]. destruct Hsc as [Hsc|(_ & -> & ->)].
    - rewrite (decode_store_found _ _ _ cs Hsc); [reflexivity|]. apply (loaded_load _ _ _ _ Hl). lia.
    - unfold decode_store. change (blen (d_file ds) =? 0 = true) in Hok. rewrite Hok. reflexivity. }
  rewrite E in Hds. inversion Hds; subst ds' r. split; [reflexivity|]. split; [|split; reflexivity].
  rewrite Rreg. apply R'_loaded; auto. lia.
Qed.

(* from a clean store only (junk beyond the store size is allowed): with a dirty tail FlushRevert
   returns to the last completed Flush instead of the one before it *)
Theorem sim'_revert : forall ds s ends ds' r s' r',
  R' ds s ends -> (d_size ds =? hd 0 ends) = true -> ops_ok (s_cmpreg s) [ORevert] ->
  dstep ds ORevert = (ds', r) -> step s ORevert = (s', r') ->
  r = r' /\ R' ds' s' (tl ends) /\ d_size ds' = hd 0 (tl ends) /\ blen (d_file ds') = d_size ds'.
Proof.
  intros ds s ends ds' r s' r' HR Hok Hops Hds Hs.
  destruct (step_refines _ _ _ _ (R'_wf _ _ _ HR) Hops Hs) as [Hwf' _].
  destruct HR as [Rf Rreg _ Rsize _ Rroots _]. apply Z.eqb_eq in Hok.
  cbn [step] in Hs. rewrite Rf in Hs. cbv zeta in Hs. inversion Hs; subst s' r'; clear Hs.
  destruct (roots_tl _ _ _ _ Rroots) as [Ht Hb]; [lia|].
  destruct (roots_scan _ _ _ _ Ht (proj1 Hb)) as (cs & H0 & Hl & Hsc).
  (* the file is cut at the root end before the last, or emptied *)
  set (ep := hd 0 (tl ends)) in *. set (f' := firstn (Z.to_nat ep) (d_file ds)).
  assert (Hbl : blen f' = ep) by (unfold f', blen in *; rewrite firstn_length; lia).
  assert (Hl' : loaded f' ep cs (hd [] (tl (s_flushed s)))) by exact (loaded_stable _ _ _ _ _ Hl (agree_firstn _ _)).
  assert (E : dstep ds ORevert = (mkDStore f' ep (colls_of_loaded (d_cmpreg ds) cs) (d_cmpreg ds), ROk)).
  { cbn [dstep]. unfold revert_bytes. rewrite Hok. destruct Hsc as [Hsc|(Hsc & E & ->)]; rewrite Hsc.
    - fold f'. rewrite (loaded_load _ _ _ _ Hl') by lia. reflexivity.
    - unfold f', ep. rewrite E. reflexivity. }
  rewrite E in Hds. inversion Hds; subst ds' r. split; [reflexivity|]. split; [|split; [reflexivity|exact Hbl]].
  rewrite Rreg. apply R'_loaded; auto; [|lia].
  eapply roots_ext; [exact Ht|lia|apply agree_firstn|intros; lia].
Qed.

Definition next_ends (o : op) (ds' : dstore) (ends : list Z) : list Z :=
  match o with
  | OFlush => d_size ds' :: ends
  | ORevert => tl ends
  | _ => ends
  end.

(* on a clean store the side conditions of sim'_* reduce to op_okb, and the store stays clean;
   every operation but FlushRevert only appends to the file *)
Theorem sim_step : forall ds s ends o ds' r s' r',
  R ds s ends -> op_okb ds o = true -> ops_ok (s_cmpreg s) [o] ->
  dstep ds o = (ds', r) -> step s o = (s', r') ->
  r = r' /\ R ds' s' (next_ends o ds' ends) /\
  (o <> ORevert -> agree (d_file ds) (d_file ds') (d_size ds) /\ d_size ds <= d_size ds').
Proof.
  intros ds s ends o ds' r s' r' HR Hok Hops Hds Hs.
  apply R_iff in HR. destruct HR as (HR & L & S).
  apply andb_prop in Hok. destruct Hok as [Hok0 Hroots].
  rewrite R_iff.
  pose proof (fun Hd => sim'_nondisk _ _ _ _ _ _ _ _ Hd HR Hok0 Hops Hds Hs) as Hnd.
  destruct o; cbn [next_ends hd];
    try (destruct (Hnd eq_refl) as (E & HR' & Ef & Es);
         rewrite Ef, Es; split; [exact E|]; split; [auto|]; intros _; split; [apply agree_refl | apply Z.le_refl]).
  - unfold roots_okb in Hroots. rewrite Hds, S in Hroots. cbn [fst] in Hroots.
    destruct (sim'_flush _ _ _ _ _ _ _ HR Hok0 Hroots (or_introl L) Hops Hds Hs) as (E & HR' & Ha & Hg & Hbl).
    rewrite roots_len_eq in Hg. split; [exact E|]. split; [auto|]. intros _. split; [exact Ha | lia].
  - assert (Hc : (0 <? hd 0 ends) || (blen (d_file ds) =? 0) = true).
    { rewrite L, S. pose proof (R'_size_nonneg _ _ _ HR).
      destruct (Z.ltb_spec 0 (hd 0 ends)); [reflexivity|].
      replace (hd 0 ends) with 0 by lia. reflexivity. }
    destruct (sim'_reopen _ _ _ _ _ _ _ HR Hc Hops Hds Hs) as (E & HR' & Sz & Ef).
    rewrite Ef, Sz. split; [exact E|]. split; [intuition congruence|]. intros _. split; [apply agree_refl | lia].
  - apply Z.eqb_eq in S.
    destruct (sim'_revert _ _ _ _ _ _ _ HR S Hops Hds Hs) as (E & HR' & Sz & Ef).
    split; [exact E|]. split; [auto | congruence].
Qed.

Theorem sim_run : forall ops ds s ends,
  R ds s ends -> ops_ok (s_cmpreg s) ops -> dhist_ok ds ops = true ->
  drun ds ops = run s ops.
Proof.
  induction ops as [|o ops IH]; intros ds s ends HR Hops Hh; [reflexivity|].
  cbn [drun run dhist_ok] in *.
  apply andb_prop in Hh. destruct Hh as [Hok Hh].
  destruct (dstep ds o) as [ds' r] eqn:Hds. destruct (step s o) as [s' r'] eqn:Hs.
  cbn [fst] in Hh.
  destruct (ops_ok_step _ _ _ _ _ Hops Hs) as [Hops1 Hops2].
  destruct (sim_step _ _ _ _ _ _ _ _ HR Hok Hops1 Hds Hs) as (Er & HR' & _).
  subst r'. f_equal. eapply IH; eauto.
Qed.

(* the byte-level store answers exactly as the abstract one *)
Theorem dstore_refines_store_exact : forall ops,
  ops_ok [] ops -> history_ok ops -> drun dinit ops = run (init true) ops.
Proof.
  intros ops Hops Hh. apply (sim_run ops dinit (init true) []); [apply R_init | exact Hops | exact Hh].
Qed.

(* with StoreRefine.c01_refines_sorted_map: the file-backed store is a sorted map across
   flushes, re-opens and reverts *)
Corollary dstore_refines_sorted_map : forall ops,
  ops_ok [] ops -> history_ok ops ->
  map oerase (drun dinit ops) = map oerase (srun (sinit true) ops).
Proof.
  intros ops Hops Hh. rewrite (dstore_refines_store_exact ops Hops Hh).
  apply c01_refines_sorted_map. exact Hops.
Qed.

(* an ordinary history that satisfies the side conditions *)
Definition ex_history : list op :=
  [ OColl [97]%N 0; OColl [98]%N 1;
    OSet [97]%N [107; 49]%N (Some [118; 49]%N) 5;
    OSet [98]%N [107; 50]%N (Some [118; 50; 0; 255]%N) 7;
    OFlush;
    OSet [97]%N [107; 51]%N (Some [118; 51]%N) 3;
    ODel [98]%N [107; 50]%N;
    OFlush;
    OReopen;
    OGet [97]%N [107; 51]%N; OGet [98]%N [107; 50]%N;
    ORevert;
    OGet [97]%N [107; 51]%N; OGet [98]%N [107; 50]%N; OGet [97]%N [107; 49]%N;
    ORevert;
    ONames ].

Example ex_history_ok : ops_ok [] ex_history /\ history_ok ex_history.
Proof.
  split.
  - cbn. repeat split; auto.
  - vm_compute. reflexivity.
Qed.

Example ex_history_refines : drun dinit ex_history = run (init true) ex_history.
Proof. apply dstore_refines_store_exact; apply ex_history_ok. Qed.

Example ex_history_run :
  drun dinit ex_history =
  [ ROk; ROk; ROk; ROk; ROk; ROk; RBool true; ROk; ROk;
    RVal (Some [118; 51]%N); RVal None;
    ROk;
    RVal None; RVal (Some [118; 50; 0; 255]%N); RVal (Some [118; 49]%N);
    ROk;
    RNames [] ].
Proof. rewrite ex_history_refines. vm_compute. reflexivity. Qed.   (* only the abstract store is run *)

(* Clause (h4) cannot be dropped: a value that looks like a root record makes FlushRevert stop
   at it.  The side conditions without (h4): *)
Fixpoint dhist_ok0 (ds : dstore) (ops : list op) : bool :=
  match ops with
  | [] => true
  | o :: ops' => op_okb0 ds o && dhist_ok0 (fst (dstep ds o)) ops'
  end.

(* the first Flush ends at 63; the value of the item set next is written at 63 + 17 and is
   a complete root record (of an empty store) that says it starts there *)
Definition cex_history : list op :=
  [ OColl [97]%N 0; OFlush;
    OSet [97]%N [107]%N (Some (enc_root [] 80)) 1; OFlush;
    ORevert; ONames ].

Example h4_needed :
  ops_ok [] cex_history /\ dhist_ok0 dinit cex_history = true /\
  drun dinit cex_history = [ROk; ROk; ROk; ROk; ROk; RNames []] /\
  run (init true) cex_history = [ROk; ROk; ROk; ROk; ROk; RNames [[97%N]]].
Proof.
  split; [cbn; auto|]. split; [vm_compute; reflexivity|].
  split; vm_compute; reflexivity.
Qed.

Print Assumptions sim'_nondisk.
Print Assumptions sim'_flush.
Print Assumptions sim'_reopen.
Print Assumptions sim'_revert.
