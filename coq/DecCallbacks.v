(* store.go's wrappers around the StoreCallbacks fields, and the guards of the before-write / after-read hooks in
   itemLoc.write / itemLoc.read (C17). *)
From GK Require Import Base Treap Codec Blocks GExpr Generated DecBase GExprFacts.
From Coq Require Import ZArith NArith List String Bool Lia.
Import ListNotations.
Open Scope string_scope.
Open Scope list_scope.
Open Scope Z_scope.

(* the StoreCallbacks wrappers (C17): when a callback is installed its result is used verbatim, with the arguments
   the wrapper was given; otherwise the default is one WriteAt of Item.Val / a fresh buffer of valLength bytes filled by
   one ReadAt / len(Item.Val) / a fresh Item with a key buffer; the reference hooks do nothing unless installed *)
Theorem callback_wrappers :
  body "Store.ItemValWrite" =
    [SIf [] (GBin "!=" (GVar "s.callbacks.ItemValWrite") GNil)
       [SReturn [GCall "s.callbacks.ItemValWrite" [GVar "c"; GVar "i"; GVar "w"; GVar "offset"]]] [];
     SAssign [GVar "_"; GVar "err"] ":=" [GCall "w.WriteAt" [GVar "i.Val"; GVar "offset"]];
     SReturn [GVar "err"]] /\
  body "Store.ItemValRead" =
    [SIf [] (GBin "!=" (GVar "s.callbacks.ItemValRead") GNil)
       [SReturn [GCall "s.callbacks.ItemValRead" [GVar "c"; GVar "i"; GVar "r"; GVar "offset"; GVar "valLength"]]] [];
     SAssign [GVar "i.Val"] "=" [GCall "make" [GOther "[]byte"; GVar "valLength"]];
     SAssign [GVar "_"; GVar "err"] ":=" [GCall "r.ReadAt" [GVar "i.Val"; GVar "offset"]];
     SReturn [GVar "err"]] /\
  body "Item.NumValBytes" =
    [SIf [] (GBin "!=" (GVar "c.store.callbacks.ItemValLength") GNil)
       [SReturn [GCall "c.store.callbacks.ItemValLength" [GVar "c"; GVar "i"]]] [];
     SReturn [GCall "len" [GVar "i.Val"]]] /\
  body "Store.ItemAlloc" =
    [SIf [] (GBin "!=" (GVar "s.callbacks.ItemAlloc") GNil)
       [SReturn [GCall "s.callbacks.ItemAlloc" [GVar "c"; GVar "keyLength"]]] [];
     SReturn [GUn "&" (GOther "Item{Key: make([]byte, keyLength)}")]] /\
  body "Store.ItemAddRef" =
    [SIf [] (GBin "!=" (GVar "s.callbacks.ItemAddRef") GNil) [SExpr (GCall "s.callbacks.ItemAddRef" [GVar "c"; GVar "i"])] []] /\
  body "Store.ItemDecRef" =
    [SIf [] (GBin "!=" (GVar "s.callbacks.ItemDecRef") GNil) [SExpr (GCall "s.callbacks.ItemDecRef" [GVar "c"; GVar "i"])] []].
Proof. repeat apply conj; vm_compute; reflexivity. Qed.

(* before-write / after-read hooks: used only when installed, on the item about to be written / just read *)
Theorem item_hooks_guarded :
  In (GBin "!=" (GVar "c.store.callbacks.BeforeItemWrite") GNil) (conds 400 (body "itemLoc.write")) /\
  In (GBin "!=" (GVar "c.store.callbacks.AfterItemRead") GNil) (conds 400 (body "itemLoc.read")) /\
  In ("c.store.callbacks.BeforeItemWrite", [GVar "c"; GVar "iItem"]) (calls_a 400 (body "itemLoc.write")) /\
  In ("c.store.callbacks.AfterItemRead", [GVar "c"; GVar "i"]) (calls_a 400 (body "itemLoc.read")).
Proof.
  repeat apply conj.
  - find_in (mentions "c.store.callbacks.BeforeItemWrite").
  - find_in (mentions "c.store.callbacks.AfterItemRead").
  - find_in (fun c : string * list gexpr => String.eqb (fst c) "c.store.callbacks.BeforeItemWrite").
  - find_in (fun c : string * list gexpr => String.eqb (fst c) "c.store.callbacks.AfterItemRead").
Qed.

