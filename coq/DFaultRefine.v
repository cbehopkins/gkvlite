(* DFaultRefine.v — failed Flush calls ANYWHERE in a history are invisible to every completed call
   (DFaultHist.v needs them to be retried at once).

   DStoreRefine's relation R says that the file ends exactly at the last root record
   (R_len, R_size).  A failed Flush breaks both: records (and a torn one) lie beyond the last root
   record, Store.size has advanced past it, and bytes may lie beyond Store.size.  DStoreRefine's
   relation R' only says   last root end <= d_size ds <= blen (d_file ds)   and keeps the invariant
   that every valid root record of the file is one of the real ones (R'_roots), so that the dirty
   tail and the junk contain none; the completed calls are simulated there (sim'_nondisk,
   sim'_flush, sim'_reopen, sim'_revert).

   Side conditions (fop_okb), beyond DStoreRefine.op_okb0:
     - FOp OFlush: no valid root record ends strictly between the last root end and the end of the
       new root record, nor beyond it up to the end of the file (junk left over by a failed Flush
       that was longer than this one);
     - FOp ORevert: the store is clean (d_size ds = last root end): with a dirty tail FlushRevert
       returns to the last completed Flush instead of the one before it;
     - FOp OReopen: a root record exists or the file is empty.  NEEDED: after a failed FIRST Flush
       the file is not empty and has no root record, and re-opening it is an error at the byte
       level ("no roots"), whereas the abstract store re-opens to the empty state
       (failed_first_flush_reopen below);
     - FFlushFail k torn: the fault fires; the aggregates fit 8 bytes and the COMPLETED Flush would
       end below 2^63 (this bounds the failed one, and the no-sharing invariant of the locations
       recorded before the error is obtained from the retried Flush); no valid root record ends
       beyond the last root end in the resulting file. *)
From GK Require Import Base Order Treap TreapSpec Store StoreSpec StoreRefine Codec CodecProofs
  Disk DiskProofs DStore DStoreRefine DiskFault DiskFaultProofs DFaultRun DFaultHist DFaultRefineAux.
From Coq Require Import Lia ZArith NArith List Bool.
Import ListNotations.
Open Scope Z_scope.

(* lr: the end of the last root record (0: none yet) *)
Definition fop_okb (ds : dstore) (lr : Z) (o : fop) : bool :=
  match o with
  | FOp OFlush =>
    let ds' := fst (dstep ds OFlush) in
    op_okb0 ds OFlush &&
    no_root_in (d_file ds') lr (Z.to_nat (d_size ds' - lr - 1)) &&
    no_root_in (d_file ds') (d_size ds') (Z.to_nat (blen (d_file ds') - d_size ds'))
  | FOp ORevert => d_size ds =? lr
  | FOp OReopen => (0 <? lr) || (blen (d_file ds) =? 0)
  | FOp o => op_okb0 ds o
  | FFlushFail k torn =>
    let ds1 := fst (dfstep ds (FFlushFail k torn)) in
    (k <? flush_calls (d_cur ds))%nat &&
    totals_okb (d_cur ds) && (d_size (fst (dstep ds OFlush)) <? two63) &&
    no_root_in (d_file ds1) lr (Z.to_nat (blen (d_file ds1) - lr))
  end.

(* after a completed Flush and after a FlushRevert the store is clean *)
Definition next_root (o : fop) (ds' : dstore) (lr : Z) : Z :=
  match o with
  | FOp OFlush => d_size ds'
  | FOp ORevert => d_size ds'
  | _ => lr
  end.

Fixpoint fhist_okb (ds : dstore) (lr : Z) (fops : list fop) : bool :=
  match fops with
  | [] => true
  | o :: fops' =>
    let ds' := fst (dfstep ds o) in
    fop_okb ds lr o && fhist_okb ds' (next_root o ds' lr) fops'
  end.

Definition fhistory_ok (fops : list fop) : Prop := fhist_okb dinit 0 fops = true.

Theorem sim'_flushfail : forall ds s ends k torn ds' r,
  R' ds s ends -> fop_okb ds (hd 0 ends) (FFlushFail k torn) = true ->
  dfstep ds (FFlushFail k torn) = (ds', r) ->
  r = RErr /\ R' ds' s ends.
Proof.
  intros ds s ends k torn ds' r HR Hok Hds.
  pose proof (R'_size_nonneg _ _ _ HR) as Hlr0.
  unfold fop_okb in Hok. rewrite Hds in Hok. cbn [fst] in Hok.
  rewrite !andb_true_iff, Nat.ltb_lt, Z.ltb_lt in Hok. destruct Hok as (((Hk & Htot) & H63) & Hnr).
  destruct (R'_coll_ok _ _ _ HR Htot) as [Hcok Hnd].
  destruct HR as [Rf Rreg Rcur Rsize _ Rroots Rwf].
  cbn [dstep] in H63.
  destruct (flush_bytes (d_file ds) (d_size ds) (d_cur ds)) as [[f' size'] cs'] eqn:Hfl. cbn [fst d_size] in H63.
  destruct (dfstep_fail ds _ torn Hk) as (f1 & s1 & cs1 & E & Hd).
  rewrite Hd in Hds. apply pair_equal_spec in Hds. destruct Hds as [<- <-]. cbn [d_file] in Hnr.
  assert (Hsz : 0 <= d_size ds <= blen (d_file ds)) by lia.
  destruct (flush_fault_durable _ _ _ _ _ _ _ _ _ Hsz E) as (Hag & Hs1).
  destruct (flush_fault_contents _ _ _ _ _ _ _ _ _ E) as (C1 & C2 & C3).
  destruct (flush_fault_inv _ _ _ _ _ _ _ _ _ _ _ Hsz Hcok Hnd E Hfl H63) as (_ & G2 & G3).
  split; [reflexivity|].
  constructor; cbn [d_cmpreg d_cur d_file d_size]; auto.
  - rewrite (contents_ecolls _ _ C1 C2 C3). exact Rcur.
  - lia.
  - apply coll_ok_inv; assumption.
  - apply (roots_ext _ _ _ _ _ _ Rroots); [lia| |].
    + apply (agree_mono _ _ _ _ Hag). lia.
    + intros e He. apply (no_root_in_spec _ _ _ Hnr). lia.
Qed.

(* a completed call: same answer; the list of root ends changes as in DStoreRefine, and the last
   root end threaded through the side condition is its head *)
Theorem sim'_step : forall ds s ends o ds' r s' r',
  R' ds s ends -> fop_okb ds (hd 0 ends) (FOp o) = true -> ops_ok (s_cmpreg s) [o] ->
  dstep ds o = (ds', r) -> step s o = (s', r') ->
  r = r' /\ R' ds' s' (next_ends o ds' ends) /\
  hd 0 (next_ends o ds' ends) = next_root (FOp o) ds' (hd 0 ends).
Proof.
  intros ds s ends o ds' r s' r' HR Hok Hops Hds Hs.
  destruct o; cbn [next_ends next_root fop_okb] in *;
    try (destruct (fun Hd => sim'_nondisk _ _ _ _ _ _ _ _ Hd HR Hok Hops Hds Hs) as (A & B & _); auto; fail).
  - rewrite Hds in Hok. cbn [fst] in Hok.
    rewrite !andb_true_iff in Hok. destruct Hok as ((Hok & Hnr) & Hjunk).
    destruct (sim'_flush _ _ _ _ _ _ _ HR Hok Hnr (or_intror Hjunk) Hops Hds Hs) as (A & B & _). auto.
  - destruct (sim'_reopen _ _ _ _ _ _ _ HR Hok Hops Hds Hs) as (A & B & C & _). auto.
  - destruct (sim'_revert _ _ _ _ _ _ _ HR Hok Hops Hds Hs) as (A & B & C & _). auto.
Qed.

Theorem sim'_run : forall fops ds s ends,
  R' ds s ends -> ops_ok (s_cmpreg s) (strip fops) -> fhist_okb ds (hd 0 ends) fops = true ->
  map fst (completed fops (dfrun ds fops)) = run s (strip fops).
Proof.
  induction fops as [|o fops IH]; intros ds s ends HR Hops Hh; [reflexivity|].
  cbn [fhist_okb] in Hh. apply andb_prop in Hh. destruct Hh as [Hok Hh].
  destruct o as [o|k torn].
  - (* a completed call *)
    cbn [dfrun strip run dfstep] in *.
    destruct (dstep ds o) as [ds' r] eqn:Hds. destruct (step s o) as [s' r'] eqn:Hs.
    cbn [fst] in Hh. cbn [completed map fst].
    destruct (ops_ok_step _ _ _ _ _ Hops Hs) as [Hops1 Hops2].
    destruct (sim'_step _ _ _ _ _ _ _ _ HR Hok Hops1 Hds Hs) as (Er & HR' & Hhd).
    subst r'. f_equal. eapply IH; [exact HR'|exact Hops2|]. rewrite Hhd. exact Hh.
  - (* a failed attempt: skipped on both sides *)
    cbn [dfrun strip].
    destruct (dfstep ds (FFlushFail k torn)) as [ds' r] eqn:Hds.
    cbn [fst] in Hh. cbn [completed next_root] in *.
    destruct (sim'_flushfail _ _ _ _ _ _ _ HR Hok Hds) as [_ HR'].
    eapply IH; eauto.
Qed.

Theorem dfrun_refines_store_general : forall fops,
  ops_ok [] (strip fops) -> fhistory_ok fops ->
  map fst (completed fops (dfrun dinit fops)) = run (init true) (strip fops).
Proof.
  intros fops Hops Hh. apply (sim'_run fops dinit (init true) []); [apply R'_init|exact Hops|exact Hh].
Qed.
Print Assumptions dfrun_refines_store_general.

(* the failed attempts themselves answer with an error *)
Lemma fhist_faults_fire : forall fops ds lr, fhist_okb ds lr fops = true -> faults_fire ds fops.
Proof.
  induction fops as [|o fops IH]; intros ds lr Hh; [exact I|].
  cbn [fhist_okb] in Hh. apply andb_prop in Hh. destruct Hh as [Hok Hh].
  cbn [faults_fire]. split; [|eapply IH; exact Hh].
  destruct o as [o|k torn]; [exact I|].
  unfold fop_okb in Hok. rewrite !andb_true_iff, Nat.ltb_lt in Hok. apply Hok.
Qed.

Theorem failed_attempts_err_general : forall fops i k torn,
  fhistory_ok fops -> nth_error fops i = Some (FFlushFail k torn) ->
  exists f, nth_error (dfrun dinit fops) i = Some (RErr, f).
Proof.
  intros fops i k torn Hh Hn. eapply failed_attempts_err; [|exact Hn].
  eapply fhist_faults_fire. exact Hh.
Qed.
Print Assumptions failed_attempts_err_general.

(* a Flush fails at call 2 of 7 (the second item record, torn after 3 bytes: the first item has been
   written, Store.size = 20, file length 23, no root record yet); a Set and two Gets follow on the
   dirty store; only then a Flush completes (284 bytes).  Later a Flush fails at call 6 of 8 (a node
   record, torn after 30 bytes: size 438, length 468), a Get follows, the store is re-opened with
   that dirty tail (size 284 again, length still 468), and the next, shorter Flush (to 402) leaves
   junk beyond its root record; finally two FlushReverts, each from a clean store *)
Definition ex_gen : list fop :=
  [ FOp (OColl [97]%N 0);
    FOp (OSet [97]%N [107; 49]%N (Some [118; 49]%N) 5);
    FOp (OSet [97]%N [107; 50]%N (Some [118; 50; 0; 255]%N) 7);
    FFlushFail 2 3;
    FOp (OSet [97]%N [107; 51]%N (Some [118; 51]%N) 3);
    FOp (OGet [97]%N [107; 49]%N); FOp (OGet [97]%N [107; 51]%N);
    FOp OFlush;
    FOp (OSet [97]%N [107; 52]%N (Some [118; 52; 118; 52; 118; 52; 118; 52; 118; 52; 118; 52]%N) 9);
    FOp (OSet [97]%N [107; 53]%N (Some [118; 53]%N) 1);
    FFlushFail 6 30;
    FOp (OGet [97]%N [107; 52]%N);
    FOp OReopen;
    FOp (OGet [97]%N [107; 52]%N); FOp (OGet [97]%N [107; 51]%N);
    FOp (ODel [97]%N [107; 49]%N);
    FOp OFlush;
    FOp (OGet [97]%N [107; 49]%N);
    FOp ORevert;
    FOp (OGet [97]%N [107; 49]%N);
    FOp ORevert;
    FOp ONames ].

(* (d_size, file length) after each call *)
Definition sizes (fops : list fop) : list (Z * Z) :=
  (fix go (ds : dstore) (l : list fop) : list (Z * Z) :=
     match l with
     | [] => []
     | o :: l' => let ds' := fst (dfstep ds o) in (d_size ds', blen (d_file ds')) :: go ds' l'
     end) dinit fops.

(* fhist_okb and sizes in one pass, so that the scans for root records of the re-open and the
   FlushReverts are evaluated once *)
Fixpoint fhist_sizes (ds : dstore) (lr : Z) (fops : list fop) : bool * list (Z * Z) :=
  match fops with
  | [] => (true, [])
  | o :: fops' =>
    let ds' := fst (dfstep ds o) in
    let '(b, zs) := fhist_sizes ds' (next_root o ds' lr) fops' in
    (fop_okb ds lr o && b, (d_size ds', blen (d_file ds')) :: zs)
  end.

Lemma fhist_sizes_spec fops : fhist_sizes dinit 0 fops = (fhist_okb dinit 0 fops, sizes fops).
Proof.
  unfold sizes. generalize dinit 0. induction fops as [|o l IH]; intros ds lr; [reflexivity|].
  cbn [fhist_sizes fhist_okb]. now rewrite IH.
Qed.

Lemma ex_gen_ok_sizes :
  fhist_sizes dinit 0 ex_gen =
  (true,
   [ (0, 0); (0, 0); (0, 0); (20, 23); (20, 23); (20, 23); (20, 23); (284, 284); (284, 284);
     (284, 284); (438, 468); (438, 468); (284, 468); (284, 468); (284, 468); (284, 468);
     (402, 468); (402, 468); (284, 284); (284, 284); (0, 0); (0, 0) ]).
Proof. vm_compute. reflexivity. Qed.

Example ex_gen_ok : fhistory_ok ex_gen.
Proof.
  pose proof ex_gen_ok_sizes as H. rewrite fhist_sizes_spec in H.
  apply pair_equal_spec in H. exact (proj1 H).
Qed.

Example ex_gen_refines :
  map fst (completed ex_gen (dfrun dinit ex_gen)) = run (init true) (strip ex_gen).
Proof. apply dfrun_refines_store_general; [cbn; auto|exact ex_gen_ok]. Qed.

(* through dfrun_outs and ex_gen_refines: only the abstract store is run *)
Example ex_gen_run :
  map fst (dfrun dinit ex_gen) =
  [ ROk; ROk; ROk; RErr; ROk; RVal (Some [118; 49]%N); RVal (Some [118; 51]%N); ROk;
    ROk; ROk; RErr; RVal (Some [118; 52; 118; 52; 118; 52; 118; 52; 118; 52; 118; 52]%N);
    ROk; RVal None; RVal (Some [118; 51]%N); RBool true; ROk; RVal None;
    ROk; RVal (Some [118; 49]%N); ROk; RNames [] ].
Proof.
  rewrite (dfrun_outs ex_gen dinit (fhist_faults_fire _ _ _ ex_gen_ok)), ex_gen_refines.
  vm_compute. reflexivity.
Qed.

(* the store really is dirty after the failed attempts, junk survives the re-open and the Flush
   after it *)
Example ex_gen_sizes :
  sizes ex_gen =
  [ (0, 0); (0, 0); (0, 0); (20, 23); (20, 23); (20, 23); (20, 23); (284, 284); (284, 284);
    (284, 284); (438, 468); (438, 468); (284, 468); (284, 468); (284, 468); (284, 468);
    (402, 468); (402, 468); (284, 284); (284, 284); (0, 0); (0, 0) ].
Proof.
  pose proof ex_gen_ok_sizes as H. rewrite fhist_sizes_spec in H.
  apply pair_equal_spec in H. exact (proj2 H).
Qed.

Example ex_general : exists fops, fhistory_ok fops /\ ops_ok [] (strip fops) /\
  (exists k t, In (FFlushFail k t) fops) /\
  ~ DFaultHist.retried fops.
Proof.
  exists ex_gen. split; [exact ex_gen_ok|]. split; [cbn; auto|]. split.
  - exists 2%nat, 3%nat. cbn. auto.
  - intro H. cbn in H. exact H.
Qed.
Print Assumptions ex_general.

(* the side conditions of a ++ b: those of a, and those of b in the state a leaves *)
Lemma fhist_okb_app : forall a b ds lr,
  fhist_okb ds lr (a ++ b) =
  fhist_okb ds lr a &&
  (let '(ds', lr') := fold_left (fun '(ds, lr) o => let ds' := fst (dfstep ds o) in (ds', next_root o ds' lr)) a (ds, lr) in
   fhist_okb ds' lr' b).
Proof.
  induction a as [|o a IH]; intros b ds lr; [reflexivity|].
  cbn [app fhist_okb fold_left]. now rewrite IH, andb_assoc.
Qed.

(* re-opening after a failed FIRST Flush: the file is not empty and has no root record; the
   byte-level store (like NewStore) reports an error, the abstract store re-opens to the empty
   state.  The side condition fails exactly at the re-open. *)
Definition cex_reopen : list fop :=
  [ FOp (OColl [97]%N 0); FOp (OSet [97]%N [107; 49]%N (Some [118; 49]%N) 5);
    FFlushFail 0 3; FOp OReopen ].

Example failed_first_flush_reopen :
  ops_ok [] (strip cex_reopen) /\
  map fst (completed cex_reopen (dfrun dinit cex_reopen)) = [ROk; ROk; RErr] /\
  run (init true) (strip cex_reopen) = [ROk; ROk; ROk] /\
  fhist_okb dinit 0 (firstn 3 cex_reopen) = true /\ fhist_okb dinit 0 cex_reopen = false.
Proof.
  (* [repeat split] would close the equations by [eq_refl] under lazy conversion before vm_compute is reached *)
  split; [cbn; auto|]. split; [|split]; [vm_compute; reflexivity..|].
  assert (H : fhist_okb dinit 0 (firstn 3 cex_reopen) = true) by (vm_compute; reflexivity).
  split; [exact H|].
  (* the side conditions of the first three calls are not evaluated again *)
  change cex_reopen with (firstn 3 cex_reopen ++ skipn 3 cex_reopen) at 1.
  rewrite fhist_okb_app, H. vm_compute. reflexivity.
Qed.

(* FlushRevert with a dirty tail (Store.size 295 beyond the last root end 275): the scan from
   size - 1 finds the LAST completed Flush, not the one before it; the abstract store walks back
   one Flush.  The side condition fails exactly at the FlushRevert. *)
Definition cex_revert : list fop :=
  [ FOp (OColl [97]%N 0); FOp (OSet [97]%N [107; 49]%N (Some [118; 49]%N) 5); FOp OFlush;
    FOp (OSet [97]%N [107; 50]%N (Some [118; 50]%N) 7); FOp OFlush;
    FOp (OSet [97]%N [107; 51]%N (Some [118; 51]%N) 3); FFlushFail 2 3;
    FOp ORevert; FOp (OGet [97]%N [107; 50]%N) ].

Example dirty_revert_excluded :
  ops_ok [] (strip cex_revert) /\
  map fst (completed cex_revert (dfrun dinit cex_revert)) =
    [ROk; ROk; ROk; ROk; ROk; ROk; ROk; RVal (Some [118; 50]%N)] /\
  run (init true) (strip cex_revert) = [ROk; ROk; ROk; ROk; ROk; ROk; ROk; RVal None] /\
  fhist_okb dinit 0 (firstn 7 cex_revert) = true /\ fhist_okb dinit 0 cex_revert = false.
Proof.
  split; [cbn; auto|]. split; [|split]; [vm_compute; reflexivity..|].
  assert (H : fhist_okb dinit 0 (firstn 7 cex_revert) = true) by (vm_compute; reflexivity).
  split; [exact H|].
  change cex_revert with (firstn 7 cex_revert ++ skipn 7 cex_revert) at 1.
  rewrite fhist_okb_app, H. vm_compute. reflexivity.
Qed.

Print Assumptions sim'_flushfail.
Print Assumptions sim'_run.
Print Assumptions ex_gen_refines.
Print Assumptions failed_first_flush_reopen.
Print Assumptions dirty_revert_excluded.
