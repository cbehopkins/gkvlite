(* LazyMutProofs.v — the touch model of LazyMut.v (SetItem / Delete on a store just opened, C19).  The
   instrumented split / join / union compute the trees of Treap.v; every touch is of a record of the input tree
   (proved for arbitrary sets of locations, locs_sub, so that the trees built on the way are covered); a touch
   costs key-only reads, so the reads never meet a value; they do not depend on the value written (novals). *)
From GK Require Import Base Treap TreapSpec Store Codec CodecProofs Disk DiskProofs Lazy LazyProofs LazyVisit LazyMut.
From Coq Require Import Lia ZArith NArith List Bool.
Import ListNotations.
Open Scope Z_scope.

(* unfolding lemmas for the nested fixpoint join_t *)

Lemma join_t_E_l b : join_t E b = (b, tn b).
Proof. destruct b; reflexivity. Qed.

Lemma join_t_E_r a : join_t a E = (a, tn a).
Proof. destruct a; reflexivity. Qed.

Lemma join_t_eq n1 tl til ti_ nn1 nb1 tr n2 al ail ai nn2 nb2 ar :
  join_t (T n1 tl til ti_ nn1 nb1 tr) (T n2 al ail ai nn2 nb2 ar) =
  if iprio ti_ >? iprio ai then
    let '(nr, t1) := join_t tr (T n2 al ail ai nn2 nb2 ar) in
    (mk tl til ti_ nr,
     (tn (T n1 tl til ti_ nn1 nb1 tr) ++ tn (T n2 al ail ai nn2 nb2 ar) ++
      ti (T n1 tl til ti_ nn1 nb1 tr) ++ ti (T n2 al ail ai nn2 nb2 ar)) ++ t1 ++ tn tl ++ tn nr)
  else
    let '(nl, t1) := join_t (T n1 tl til ti_ nn1 nb1 tr) al in
    (mk nl ail ai ar,
     (tn (T n1 tl til ti_ nn1 nb1 tr) ++ tn (T n2 al ail ai nn2 nb2 ar) ++
      ti (T n1 tl til ti_ nn1 nb1 tr) ++ ti (T n2 al ail ai nn2 nb2 ar)) ++ t1 ++ tn nl ++ tn ar).
Proof. reflexivity. Qed.

Lemma split_t_fst cmp t s : fst (split_t cmp t s) = Treap.split cmp t s.
Proof.
  induction t as [|nl l IHl il it nn nb r IHr]; [reflexivity|].
  cbn [split_t Treap.split]. destruct (cmp s (ikey it)); [reflexivity| |].
  - rewrite <- IHl. destruct (split_t cmp l s) as [[[ll m] lr] tl]. cbn [fst].
    destruct l; reflexivity.
  - rewrite <- IHr. destruct (split_t cmp r s) as [[[rl m] rr] tr]. cbn [fst].
    destruct r; reflexivity.
Qed.

Lemma join_t_fst this that : fst (join_t this that) = join this that.
Proof.
  revert that. induction this as [|n1 tl IHtl til ti_ nn1 nb1 tr IHtr]; intro that.
  - rewrite join_t_E_l, join_E_l. reflexivity.
  - induction that as [|n2 al IHal ail ai nn2 nb2 ar IHar].
    + rewrite join_t_E_r, join_E_r. reflexivity.
    + rewrite join_t_eq, join_eq. destruct (iprio ti_ >? iprio ai).
      * rewrite <- IHtr. destruct (join_t tr (T n2 al ail ai nn2 nb2 ar)) as [nr t1]. reflexivity.
      * rewrite <- IHal. destruct (join_t (T n1 tl til ti_ nn1 nb1 tr) al) as [nl t1]. reflexivity.
Qed.

Lemma union_t_fst cmp fuel a b : option_map fst (union_t cmp fuel a b) = union cmp fuel a b.
Proof.
  revert a b. induction fuel as [|f IH]; intros a b; [reflexivity|].
  destruct a as [|n1 tl til ti_ nn1 nb1 tr]; [reflexivity|].
  destruct b as [|n2 al ail ai nn2 nb2 ar]; [reflexivity|].
  cbn [union_t union]. destruct (iprio ti_ >? iprio ai).
  - rewrite <- (split_t_fst cmp (T n2 al ail ai nn2 nb2 ar) (ikey ti_)).
    destruct (split_t cmp (T n2 al ail ai nn2 nb2 ar) (ikey ti_)) as [[[l m] r] ts]. cbn [fst].
    rewrite <- (IH tl l), <- (IH tr r).
    destruct (union_t cmp f tl l) as [[nl t1]|]; [|reflexivity].
    destruct (union_t cmp f tr r) as [[nr t2]|]; [|reflexivity].
    destruct m as [[mil mi]|]; reflexivity.
  - rewrite <- (split_t_fst cmp (T n1 tl til ti_ nn1 nb1 tr) (ikey ai)).
    destruct (split_t cmp (T n1 tl til ti_ nn1 nb1 tr) (ikey ai)) as [[[l m] r] ts]. cbn [fst].
    rewrite <- (IH l al), <- (IH r ar).
    destruct (union_t cmp f l al) as [[nl t1]|]; [|reflexivity].
    destruct (union_t cmp f r ar) as [[nr t2]|]; reflexivity.
Qed.

(* the locations of a tree lie in given sets NP (nodes) / IP (items) *)
Section Locs.
Variable NP : ploc -> Prop.
Variable IP : ploc * item -> Prop.

Definition locs_sub (t : tree) : Prop := Forall NP (node_locs t) /\ Forall IP (item_locs t).
Definition oN (o : option ploc) : Prop := match o with Some p => NP p | None => True end.
Definition oI (o : option ploc) (it : item) : Prop := match o with Some q => IP (q, it) | None => True end.
Definition touch_ok (x : touch) : Prop := match x with TN p => NP p | TI q it => IP (q, it) end.
Definition mid_ok (m : option (option ploc * item)) : Prop :=
  match m with Some (il, it) => oI il it | None => True end.

Lemma locs_sub_E : locs_sub E.
Proof. split; constructor. Qed.

Lemma locs_sub_T nl l il it nn nb r :
  locs_sub (T nl l il it nn nb r) <-> oN nl /\ oI il it /\ locs_sub l /\ locs_sub r.
Proof.
  unfold locs_sub. cbn [node_locs item_locs]. split.
  - intros [HN HI]. apply Forall_app in HN, HI. destruct HN as (Nl & HN), HI as (Il & HI).
    apply Forall_app in HN, HI. destruct HN as (Nm & Nr), HI as (Im & Ir).
    repeat split; try assumption.
    + destruct nl; [exact (Forall_inv Nm)|exact I].
    + destruct il; [exact (Forall_inv Im)|exact I].
  - intros (Nm & Im & [Nl Il] & [Nr Ir]). split; repeat (apply Forall_app; split); try assumption.
    + destruct nl; repeat constructor; exact Nm.
    + destruct il; repeat constructor; exact Im.
Qed.

Lemma locs_sub_mk l il it r : locs_sub l -> locs_sub r -> oI il it -> locs_sub (mk l il it r).
Proof. intros Hl Hr Hi. unfold mk. apply locs_sub_T. cbn [oN]. auto. Qed.

Lemma tn_ok t : locs_sub t -> Forall touch_ok (tn t).
Proof.
  destruct t as [|nl l il it nn nb r]; intro H; [constructor|].
  apply locs_sub_T in H. destruct H as (H & _). destruct nl as [p|]; cbn [tn]; constructor; [exact H|constructor].
Qed.

Lemma ti_ok t : locs_sub t -> Forall touch_ok (ti t).
Proof.
  destruct t as [|nl l il it nn nb r]; intro H; [constructor|].
  apply locs_sub_T in H. destruct H as (_ & H & _). destruct il as [q|]; cbn [ti]; constructor; [exact H|constructor].
Qed.

Ltac chain := repeat (apply Forall_app_intro); auto using tn_ok, ti_ok.

Lemma get_t_ok cmp k : forall t, locs_sub t -> Forall touch_ok (get_t cmp t k).
Proof.
  induction t as [|nl l IHl il it nn nb r IHr]; intro H; [constructor|].
  pose proof H as H0. apply locs_sub_T in H0. destruct H0 as (_ & _ & Hl & Hr).
  cbn [get_t]. chain. destruct (cmp k (ikey it)); [constructor|auto|auto].
Qed.

Lemma split_t_ok cmp : forall t s, locs_sub t ->
  match split_t cmp t s with
  | ((l, m, r), ts) => Forall touch_ok ts /\ locs_sub l /\ locs_sub r /\ mid_ok m
  end.
Proof.
  induction t as [|nl l IHl il it nn nb r IHr]; intros s H.
  - cbn [split_t mid_ok]. repeat split; constructor.
  - pose proof H as H0. apply locs_sub_T in H0. destruct H0 as (Hn & Hi & Hl & Hr).
    assert (T0 : Forall touch_ok (tn (T nl l il it nn nb r) ++ ti (T nl l il it nn nb r))) by chain.
    cbn [split_t]. destruct (cmp s (ikey it)).
    + cbn [mid_ok]. split; [chain | auto].
    + specialize (IHl s Hl). destruct (split_t cmp l s) as [[[ll m] lr] tl].
      destruct IHl as (A & B & C & D).
      destruct l as [|nl' a il' it' nn' nb' b].
      * cbn [mid_ok]. split; [exact T0|]. split; [apply locs_sub_E|]. split; [exact H|exact I].
      * split; [chain|]. split; [exact B|]. split; [|exact D]. apply locs_sub_mk; auto.
    + specialize (IHr s Hr). destruct (split_t cmp r s) as [[[rl m] rr] tr].
      destruct IHr as (A & B & C & D).
      destruct r as [|nl' a il' it' nn' nb' b].
      * cbn [mid_ok]. split; [exact T0|]. split; [exact H|]. split; [apply locs_sub_E|exact I].
      * split; [chain|]. split; [|split; [exact C|exact D]]. apply locs_sub_mk; auto.
Qed.

Lemma join_t_ok : forall a b, locs_sub a -> locs_sub b ->
  Forall touch_ok (snd (join_t a b)) /\ locs_sub (fst (join_t a b)).
Proof.
  induction a as [|n1 tl IHtl til ti_ nn1 nb1 tr IHtr]; intros b Ha.
  - intro Hb. rewrite join_t_E_l. cbn [fst snd]. split; [chain|exact Hb].
  - pose proof Ha as Ha0. apply locs_sub_T in Ha0. destruct Ha0 as (_ & Hti & Htl & Htr).
    induction b as [|n2 al IHal ail ai nn2 nb2 ar IHar]; intro Hb.
    + rewrite join_t_E_r. cbn [fst snd]. split; [chain|exact Ha].
    + pose proof Hb as Hb0. apply locs_sub_T in Hb0. destruct Hb0 as (_ & Hai & Hal & Har).
      rewrite join_t_eq. destruct (iprio ti_ >? iprio ai).
      * specialize (IHtr _ Htr Hb). destruct (join_t tr (T n2 al ail ai nn2 nb2 ar)) as [nr t1].
        cbn [fst snd] in *. destruct IHtr as [A B]. split; [chain|]. apply locs_sub_mk; auto.
      * specialize (IHal Hal). destruct (join_t (T n1 tl til ti_ nn1 nb1 tr) al) as [nl t1].
        cbn [fst snd] in *. destruct IHal as [A B]. split; [chain|]. apply locs_sub_mk; auto.
Qed.

Lemma union_t_ok cmp : forall fuel a b, locs_sub a -> locs_sub b ->
  match union_t cmp fuel a b with
  | Some (t, ts) => Forall touch_ok ts /\ locs_sub t
  | None => True
  end.
Proof.
  induction fuel as [|f IH]; intros a b Ha Hb; [exact I|].
  destruct a as [|n1 tl til ti_ nn1 nb1 tr].
  { cbn [union_t]. split; [chain|exact Hb]. }
  destruct b as [|n2 al ail ai nn2 nb2 ar].
  { cbn [union_t]. split; [chain|exact Ha]. }
  pose proof Ha as Ha0. apply locs_sub_T in Ha0. destruct Ha0 as (_ & Hti & Htl & Htr).
  pose proof Hb as Hb0. apply locs_sub_T in Hb0. destruct Hb0 as (_ & Hai & Hal & Har).
  cbn [union_t]. destruct (iprio ti_ >? iprio ai).
  - pose proof (split_t_ok cmp _ (ikey ti_) Hb) as Hs.
    destruct (split_t cmp (T n2 al ail ai nn2 nb2 ar) (ikey ti_)) as [[[l m] r] ts].
    destruct Hs as (A & B & C & D).
    pose proof (IH tl l Htl B) as H1. pose proof (IH tr r Htr C) as H2.
    destruct (union_t cmp f tl l) as [[nl t1]|]; [|exact I].
    destruct (union_t cmp f tr r) as [[nr t2]|]; [|exact I].
    destruct H1 as [H1 H1']. destruct H2 as [H2 H2']. split; [chain|].
    destruct m as [[mil mi]|]; apply locs_sub_mk; auto.
  - pose proof (split_t_ok cmp _ (ikey ai) Ha) as Hs.
    destruct (split_t cmp (T n1 tl til ti_ nn1 nb1 tr) (ikey ai)) as [[[l m] r] ts].
    destruct Hs as (A & B & C & D).
    pose proof (IH l al B Hal) as H1. pose proof (IH r ar C Har) as H2.
    destruct (union_t cmp f l al) as [[nl t1]|]; [|exact I].
    destruct (union_t cmp f r ar) as [[nr t2]|]; [|exact I].
    destruct H1 as [H1 H1']. destruct H2 as [H2 H2']. split; [chain|].
    apply locs_sub_mk; auto.
Qed.

End Locs.

Definition NPof (t : tree) : ploc -> Prop := fun p => In p (node_locs t).
Definition IPof (t : tree) : ploc * item -> Prop := fun x => In x (item_locs t).

Lemma locs_sub_self t : locs_sub (NPof t) (IPof t) t.
Proof. split; apply Forall_forall; auto. Qed.

Lemma locs_sub_single NP IP it : locs_sub NP IP (single it).
Proof. split; constructor. Qed.

Lemma set_ok NP IP cmp t k v prio : locs_sub NP IP t ->
  Forall (touch_ok NP IP) (set_touches cmp t k (Some v) prio) /\
  locs_sub NP IP (match set_item cmp t k (Some v) prio with Some t' => t' | None => t end).
Proof.
  intro H. unfold set_touches, set_item.
  destruct (valid_item k (Some v) prio); [|split; [constructor|exact H]].
  rewrite <- union_t_fst.
  pose proof (union_t_ok NP IP cmp (S (S (height t))) t (single (mkItem k v prio)) H (locs_sub_single _ _ _)) as Hu.
  destruct (union_t cmp (S (S (height t))) t (single (mkItem k v prio))) as [[t' ts]|]; cbn [option_map fst].
  - exact Hu.
  - split; [constructor|exact H].
Qed.

Lemma del_ok NP IP cmp t k : locs_sub NP IP t ->
  Forall (touch_ok NP IP) (del_touches cmp t k) /\ locs_sub NP IP (fst (delete cmp t k)).
Proof.
  intro H. unfold del_touches, delete.
  destruct (lookup cmp t k) as [i|]; [|split; [now apply get_t_ok|exact H]].
  rewrite <- split_t_fst.
  pose proof (split_t_ok NP IP cmp t k H) as Hs.
  destruct (split_t cmp t k) as [[[l m] r] ts]. destruct Hs as (A & B & C & _). cbn [fst].
  pose proof (join_t_ok NP IP l r B C) as Hj. rewrite join_t_fst in Hj.
  destruct (join_t l r) as [j tj]. cbn [fst snd] in Hj. destruct Hj as [Hj1 Hj2].
  split.
  - rewrite !Forall_app. split; [now apply get_t_ok|]. split; assumption.
  - destruct m; cbn [fst]; assumption.
Qed.

Definition touch_in (t : tree) : touch -> Prop := touch_ok (NPof t) (IPof t).

Lemma get_t_in cmp t k : Forall (touch_in t) (get_t cmp t k).
Proof. apply get_t_ok, locs_sub_self. Qed.

Lemma set_touches_in cmp t key val prio : Forall (touch_in t) (set_touches cmp t key val prio).
Proof. destruct val as [v|]; [apply set_ok, locs_sub_self|constructor]. Qed.

Lemma del_touches_in cmp t k : Forall (touch_in t) (del_touches cmp t k).
Proof. apply del_ok, locs_sub_self. Qed.

Fixpoint touch_offs (ts : list touch) : list Z :=
  match ts with [] => [] | TN p :: r => poff p :: touch_offs r | TI q _ :: r => poff q :: touch_offs r end.

Definition toff (x : touch) : Z := match x with TN p => poff p | TI q _ => poff q end.
Definition touch_reads (x : touch) : list rd :=
  match x with TN p => node_reads p | TI q it => item_reads q it false end.

(* the touches of ts that reads_of reads: the first touch of each offset not in the seen set *)
Fixpoint fresh (s : list Z) (ts : list touch) : list touch :=
  match ts with
  | [] => []
  | x :: r => if seen (toff x) s then fresh s r else x :: fresh (toff x :: s) r
  end.

Lemma touch_offs_map ts : touch_offs ts = map toff ts.
Proof. induction ts as [|[p|q it] r IH]; cbn [touch_offs map toff]; [reflexivity| |]; now rewrite IH. Qed.

Lemma seen_spec o s : seen o s = true <-> In o s.
Proof.
  unfold seen. rewrite existsb_exists. split.
  - intros (x & Hx & He). apply Z.eqb_eq in He. now subst x.
  - intro H. exists o. split; [exact H|apply Z.eqb_refl].
Qed.

(* reads_of, uniformly in the kind of touch *)
Lemma reads_of_cons s x r :
  reads_of s (x :: r) = if seen (toff x) s then reads_of s r else touch_reads x ++ reads_of (toff x :: s) r.
Proof. destruct x; reflexivity. Qed.

Lemma reads_of_fresh : forall ts s, reads_of s ts = flat_map touch_reads (fresh s ts).
Proof.
  induction ts as [|x r IH]; intro s; [reflexivity|]. rewrite reads_of_cons. cbn [fresh].
  destruct (seen (toff x) s); [apply IH|]. cbn [flat_map]. now rewrite IH.
Qed.

Lemma fresh_sub : forall ts s x, In x (fresh s ts) -> In x ts /\ ~ In (toff x) s.
Proof.
  induction ts as [|y r IH]; intros s x H; [destruct H|].
  cbn [fresh] in H. destruct (seen (toff y) s) eqn:Es.
  - destruct (IH s x H) as [A B]. split; [now right|exact B].
  - destruct H as [<-|H].
    + split; [now left|]. intro Hin. apply seen_spec in Hin. congruence.
    + destruct (IH _ x H) as [A B]. split; [now right|]. intro Hin. apply B. now right.
Qed.

Theorem fresh_nodup : forall ts s, NoDup (touch_offs (fresh s ts)).
Proof.
  induction ts as [|y r IH]; intro s; [constructor|].
  cbn [fresh]. destruct (seen (toff y) s); [apply IH|].
  rewrite touch_offs_map. cbn [map]. constructor; [|rewrite <- touch_offs_map; apply IH].
  intro Hin. apply in_map_iff in Hin. destruct Hin as (x & Hx & Hin).
  destruct (fresh_sub _ _ _ Hin) as [_ B]. apply B. left. symmetry. exact Hx.
Qed.

(* a record whose offset is in the seen set is not read: every read belongs to a touch of ts whose offset is
   not in s *)
Theorem reads_of_first_only' s ts r :
  In r (reads_of s ts) -> exists x, In x ts /\ ~ In (toff x) s /\ In r (touch_reads x).
Proof.
  rewrite reads_of_fresh. intro H. apply in_flat_map in H. destruct H as (x & Hx & Hr).
  destruct (fresh_sub _ _ _ Hx) as [A B]. exists x. auto.
Qed.

Lemma touch_reads_key_only t x : touch_in t x -> Forall (key_only t) (touch_reads x).
Proof. destruct x; [apply key_only_node_in|apply key_only_item_in]. Qed.

Lemma reads_of_key_only t s ts : Forall (touch_in t) ts -> Forall (key_only t) (reads_of s ts).
Proof.
  intro H. rewrite Forall_forall in H. apply Forall_forall. intros r Hr.
  destruct (reads_of_first_only' s ts r Hr) as (x & Hx & _ & Hrx).
  exact (proj1 (Forall_forall _ _) (touch_reads_key_only t x (H x Hx)) r Hrx).
Qed.

Theorem set_reads_keyonly cmp t key val prio :
  Forall (fun r => in_node t r \/ in_keypart t r) (set_treads cmp t key val prio).
Proof. unfold set_treads. apply (reads_of_key_only t). apply set_touches_in. Qed.

Theorem del_reads_keyonly cmp t k :
  Forall (fun r => in_node t r \/ in_keypart t r) (del_treads cmp t k).
Proof. unfold del_treads. apply (reads_of_key_only t). apply del_touches_in. Qed.

Theorem set_never_reads_values cmp f t key val prio :
  rep f t -> records_disjoint t ->
  forall r, In r (set_treads cmp t key val prio) ->
  forall q it, In (q, it) (item_locs t) -> rd_disjoint r (value_range q it).
Proof.
  intros Hrep Hd r Hr. apply (key_only_never_value f t r Hrep Hd).
  exact (proj1 (Forall_forall _ _) (set_reads_keyonly cmp t key val prio) r Hr).
Qed.

Theorem del_never_reads_values cmp f t k :
  rep f t -> records_disjoint t ->
  forall r, In r (del_treads cmp t k) ->
  forall q it, In (q, it) (item_locs t) -> rd_disjoint r (value_range q it).
Proof.
  intros Hrep Hd r Hr. apply (key_only_never_value f t r Hrep Hd).
  exact (proj1 (Forall_forall _ _) (del_reads_keyonly cmp t k) r Hr).
Qed.

(* where SetItem succeeds, union_t returns the same tree and set_touches is what it touched; likewise for Delete *)
Theorem set_touches_result cmp t key v prio t' :
  set_item cmp t key (Some v) prio = Some t' ->
  exists ts, union_t cmp (S (S (height t))) t (single (mkItem key v prio)) = Some (t', ts)
             /\ set_touches cmp t key (Some v) prio = ts.
Proof.
  unfold set_item, set_touches. intro H.
  destruct (valid_item key (Some v) prio); [|discriminate].
  rewrite <- union_t_fst in H.
  destruct (union_t cmp (S (S (height t))) t (single (mkItem key v prio))) as [[t'' ts]|];
    [|discriminate].
  cbn [option_map fst] in H. inversion H; subst t''. exists ts. split; reflexivity.
Qed.

Theorem del_touches_result cmp t k l m r :
  lookup cmp t k <> None -> Treap.split cmp t k = (l, m, r) ->
  exists ts tj, split_t cmp t k = ((l, m, r), ts) /\ join_t l r = (join l r, tj) /\
                del_touches cmp t k = get_t cmp t k ++ ts ++ tj.
Proof.
  intros Hl Hs. unfold del_touches.
  destruct (lookup cmp t k) as [i|]; [|congruence].
  rewrite <- split_t_fst in Hs. destruct (split_t cmp t k) as [x ts]. cbn [fst] in Hs. subst x.
  pose proof (join_t_fst l r) as Hj. destruct (join_t l r) as [j tj]. cbn [fst] in Hj. subst j.
  exists ts, tj. repeat split.
Qed.

(* The reads do not depend on the value being written.  novals blanks every value that has no location (a
   located item is what ti records, so it stays) and recomputes the aggregates the way mk does, so that it
   commutes with mk; split_t and union_t then commute with it and issue the same touches. *)
Definition noval (il : option ploc) (it : item) : item :=
  match il with Some _ => it | None => mkItem (ikey it) [] (iprio it) end.

Fixpoint novals (t : tree) : tree :=
  match t with
  | E => E
  | T nl l il it _ _ r =>
    T nl (novals l) il (noval il it) (num (novals l) + num (novals r) + 1)
      (nby (novals l) + nby (novals r) + item_bytes (noval il it)) (novals r)
  end.

Definition noval_mid (m : option (option ploc * item)) : option (option ploc * item) :=
  option_map (fun '(il, it) => (il, noval il it)) m.

Lemma noval_key il it : ikey (noval il it) = ikey it.
Proof. destruct il; reflexivity. Qed.

Lemma noval_prio il it : iprio (noval il it) = iprio it.
Proof. destruct il; reflexivity. Qed.

Lemma novals_mk l il it r : novals (mk l il it r) = mk (novals l) il (noval il it) (novals r).
Proof. reflexivity. Qed.

Lemma tn_novals t : tn (novals t) = tn t.
Proof. destruct t; reflexivity. Qed.

(* ti of a node is unchanged as well: by conversion once il is destructed *)
Lemma split_t_novals cmp s : forall t,
  split_t cmp (novals t) s =
  let '((l, m, r), ts) := split_t cmp t s in ((novals l, noval_mid m, novals r), ts).
Proof.
  induction t as [|nl l IHl il it nn nb r IHr]; [reflexivity|].
  cbn [novals split_t]. rewrite noval_key, IHl, IHr, !tn_novals. destruct (cmp s (ikey it)).
  - destruct il; reflexivity.
  - destruct l as [|n a i x y z b]; [destruct il; reflexivity|].
    destruct (split_t cmp (T n a i x y z b) s) as [[[ll m] lr] tl]. cbn [novals].
    rewrite novals_mk, !tn_novals. destruct il; reflexivity.
  - destruct r as [|n a i x y z b]; [destruct il; reflexivity|].
    destruct (split_t cmp (T n a i x y z b) s) as [[[rl m] rr] tr]. cbn [novals].
    rewrite novals_mk, !tn_novals. destruct il; reflexivity.
Qed.

Lemma union_t_novals cmp : forall fuel a b,
  union_t cmp fuel (novals a) (novals b) =
  option_map (fun '(t, ts) => (novals t, ts)) (union_t cmp fuel a b).
Proof.
  induction fuel as [|f IH]; intros a b; [reflexivity|].
  destruct a as [|n1 tl til ti_ nn1 nb1 tr]; [cbn [novals union_t option_map]; now rewrite tn_novals|].
  destruct b as [|n2 al ail ai nn2 nb2 ar]; [reflexivity|].
  pose proof (split_t_novals cmp (ikey ti_) (T n2 al ail ai nn2 nb2 ar)) as H2.
  pose proof (split_t_novals cmp (ikey ai) (T n1 tl til ti_ nn1 nb1 tr)) as H1.
  cbn [novals union_t] in *. rewrite !noval_key, !noval_prio, H1, H2. clear H1 H2. destruct (iprio ti_ >? iprio ai).
  - destruct (split_t cmp (T n2 al ail ai nn2 nb2 ar) (ikey ti_)) as [[[l m] r] ts]. rewrite !IH.
    destruct (union_t cmp f tl l) as [[nl t1]|]; [|reflexivity].
    destruct (union_t cmp f tr r) as [[nr t2]|]; [|reflexivity].
    cbn [option_map]. rewrite !tn_novals. destruct m as [[mil mi]|], til, ail; reflexivity.
  - destruct (split_t cmp (T n1 tl til ti_ nn1 nb1 tr) (ikey ai)) as [[[l m] r] ts]. rewrite !IH.
    destruct (union_t cmp f l al) as [[nl t1]|]; [|reflexivity].
    destruct (union_t cmp f r ar) as [[nr t2]|]; [|reflexivity].
    cbn [option_map]. rewrite !tn_novals. destruct til, ail; reflexivity.
Qed.

(* unfold first: left to unification, the two sides are compared by evaluating length key <=? 65535 *)
Lemma valid_item_val key v v' prio : valid_item key (Some v) prio = valid_item key (Some v') prio.
Proof. unfold valid_item. destruct key; reflexivity. Qed.

Theorem set_reads_value_irrelevant cmp t key v v' prio :
  set_treads cmp t key (Some v) prio = set_treads cmp t key (Some v') prio.
Proof.
  unfold set_treads. f_equal. unfold set_touches.
  rewrite <- (valid_item_val key v v' prio). destruct (valid_item key (Some v) prio); [|reflexivity].
  (* the two new nodes are the same once the value is blanked *)
  pose proof (union_t_novals cmp (S (S (height t))) t (single (mkItem key v prio))) as H.
  change (novals (single (mkItem key v prio))) with (novals (single (mkItem key v' prio))) in H.
  rewrite union_t_novals in H.
  destruct (union_t cmp (S (S (height t))) t (single (mkItem key v prio))) as [[t1 ts1]|];
    destruct (union_t cmp (S (S (height t))) t (single (mkItem key v' prio))) as [[t2 ts2]|];
    try discriminate H; [|reflexivity].
  injection H as _ ->. reflexivity.
Qed.

(* from the file: the tree the independent decoder loads is the persisted tree *)

Theorem mut_reads_file_spec cmp f t b set key prio :
  rep f t -> persisted t -> below t b -> (size t <= S (length f))%nat ->
  mut_reads_file cmp f (root_loc t) b set key prio =
  Some (if set then set_treads cmp t key (Some []) prio else del_treads cmp t key).
Proof.
  intros Hrep Hper Hb Hs. unfold mut_reads_file.
  rewrite (load_rep_file f t b Hrep Hper Hb Hs). reflexivity.
Qed.

(* non-vacuity (bytes.Compare is Base.cmp_bytes) *)
Example ex_set_reads : exists t, persisted t /\ set_treads cmp_bytes t [107%N] (Some []) 5 <> [].
Proof.
  exists (T (Some (mkPloc 100 39)) E (Some (mkPloc 0 20)) (mkItem [97%N] [1%N] 9) 1 2 E).
  split.
  - cbn [persisted]. repeat split; discriminate.
  - vm_compute. discriminate.
Qed.

(* whatever is cached: with any set s of records already in memory, the reads of GetItem(key, false), SetItem and
   Delete are still node records, item headers and keys only *)
Theorem mut_reads_any_cache cmp t key val prio k s :
  Forall (key_only t) (reads_of s (get_t cmp t k)) /\
  Forall (key_only t) (reads_of s (set_touches cmp t key val prio)) /\
  Forall (key_only t) (reads_of s (del_touches cmp t k)).
Proof.
  split; [|split]; apply reads_of_key_only; [apply get_t_in | apply set_touches_in | apply del_touches_in].
Qed.

Print Assumptions split_t_fst.
Print Assumptions join_t_fst.
Print Assumptions union_t_fst.
Print Assumptions get_t_in.
Print Assumptions set_touches_in.
Print Assumptions del_touches_in.
Print Assumptions reads_of_key_only.
Print Assumptions set_reads_keyonly.
Print Assumptions del_reads_keyonly.
Print Assumptions set_never_reads_values.
Print Assumptions del_never_reads_values.
Print Assumptions set_touches_result.
Print Assumptions del_touches_result.
Print Assumptions set_reads_value_irrelevant.
Print Assumptions mut_reads_file_spec.
Print Assumptions fresh_nodup.
Print Assumptions reads_of_first_only'.
Print Assumptions ex_set_reads.
Print Assumptions mut_reads_any_cache.
