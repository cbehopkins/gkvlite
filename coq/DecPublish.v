(* The order of the calls of Collection.SetItem and Collection.Delete: they publish only through rootCAS after the whole
   rebuild, and restore the marks when it failed (C07, C10). *)
From GK Require Import Base Treap Codec Blocks GExpr Generated DecBase.
From Coq Require Import ZArith NArith List String Bool Lia.
Import ListNotations.
Open Scope string_scope.
Open Scope list_scope.
Open Scope Z_scope.

Theorem mutation_publish_order :
  before "t.rootAddRef" "t.store.union" (call_list "Collection.SetItem") = true /\
  before "t.store.union" "t.unmarkReclaimable" (call_list "Collection.SetItem") = true /\
  before "t.store.union" "t.rootCAS" (call_list "Collection.SetItem") = true /\
  before "t.rootAddRef" "t.store.split" (call_list "Collection.Delete") = true /\
  before "t.store.split" "t.store.join" (call_list "Collection.Delete") = true /\
  before "t.store.join" "t.rootCAS" (call_list "Collection.Delete") = true /\
  count_occ string_dec (call_list "Collection.Delete") "t.unmarkReclaimable" = 2%nat /\
  count_occ string_dec (call_list "Collection.SetItem") "t.rootCAS" = 1%nat /\
  count_occ string_dec (call_list "Collection.Delete") "t.rootCAS" = 1%nat.
Proof. repeat apply conj; vm_compute; reflexivity. Qed.

