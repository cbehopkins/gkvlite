(* Corollaries.v — compositions of the main lemmas, stated the way the
   properties speak (used by Props/*.v). *)
From GK Require Import Base Order Treap TreapSpec Store StoreSpec StoreRefine.

(* every state reachable from the empty store by a comparator-consistent history is
   well formed: every collection's tree (current and flushed) is a search tree under its
   comparator with exact aggregates at every node *)
Lemma reachable_wf : forall file ops, ops_ok [] ops -> wf (exec (init file) ops).
Proof.
  intros file ops H. apply run_wf; [apply wf_init | exact H].
Qed.

Lemma reachable_tree_invariants : forall file ops n c, ops_ok [] ops ->
  cget (s_cur (exec (init file) ops)) n = Some c ->
  bst (cmp_of (c_cmp c)) (c_tree c) /\ aggs (c_tree c).
Proof.
  intros file ops n c H Hc. pose proof (reachable_wf file ops H) as [[_ Hw] _].
  destruct (Hw n c Hc) as [Hwf _]. exact Hwf.
Qed.

Lemma depths_shape : forall a b d, shape_of a = shape_of b -> depths a d = depths b d.
Proof.
  induction a as [|nl l IHl il it nn nb r IHr]; intros b d H; destruct b as [|nl' l' il' it' nn' nb' r'];
    cbn [shape_of] in H; try discriminate; [reflexivity|].
  injection H as Hl Hi Hr. subst it'. cbn [depths].
  rewrite (IHl l' (d + 1) Hl), (IHr r' (d + 1) Hr). reflexivity.
Qed.

(* with pairwise distinct priorities the depth of every item is determined by the
   current keys and priorities alone *)
Lemma depth_canonical : forall cmp a b, bst cmp a -> bst cmp b -> heap a -> heap b ->
  elems a = elems b -> NoDup (map iprio (elems a)) -> forall d, depths a d = depths b d.
Proof.
  intros cmp a b Ha Hb Hha Hhb He Hn d. apply depths_shape.
  eapply treap_unique; eauto.
Qed.

(* SetItem / Delete preserve heap order unless a key is overwritten with a lower priority *)
Lemma set_item_heap : forall cmp, cmp_laws cmp -> forall t key v prio t',
  bst cmp t -> heap t ->
  (forall old, find cmp key (elems t) = Some old -> iprio old <= prio) ->
  set_item cmp t key (Some v) prio = Some t' -> heap t'.
Proof.
  intros cmp L t key v prio t' Hb Hh Hold Hs.
  destruct (valid_item key (Some v) prio) eqn:Hv.
  - rewrite (set_item_spec cmp t key v prio Hv) in Hs. injection Hs as <-.
    apply insert_heap; auto.
  - rewrite (set_item_invalid cmp t key (Some v) prio Hv) in Hs. discriminate.
Qed.

Lemma delete_heap : forall cmp, cmp_laws cmp -> forall t k t' b,
  bst cmp t -> heap t -> delete cmp t k = (t', b) -> heap t'.
Proof.
  intros cmp L t k t' b Hb Hh Hd.
  destruct (delete_spec cmp L t k t' b Hb Hd) as (_ & _ & _ & _ & H). exact (H Hh).
Qed.
