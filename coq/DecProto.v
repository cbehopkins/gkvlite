(* rootCAS, rootDecRefUnlocked, rootAddRef, rootDecRef and closeCollection (collection.go) against the steps of Proto.v
   (C05, C10). *)
From GK Require Import Base Treap Codec Blocks GExpr Generated DecBase GExprFacts.
From Coq Require Import ZArith NArith List String Bool Lia.
Import ListNotations.
Open Scope string_scope.
Open Scope list_scope.
Open Scope Z_scope.

(* rootCAS: the new version is chained behind the previous one iff the previous one has more than two references
   (Proto.v: chained := bool_decide (2 < v_refs x)) *)
Theorem rootcas_chain_decision :
  exists c, decisions "Collection.rootCAS" "prev.refs" = [c] /\
    forall refs : Z, gtrue (upd (upd env0 "prev" 1) "prev.refs" refs) c = Some (2 <? refs).
Proof.
  eexists. split; [vm_compute; reflexivity|]. intro refs. gsimpl. rewrite Z.gtb_ltb.
  destruct (2 <? refs); reflexivity.
Qed.

(* rootDecRefUnlocked (collection.go): a reference is dropped; the version dies only when that was the last one
   (Proto.decref: refs = S (S n) -> just decremented; refs = 1 -> dies); at death the tree is marked reclaimable only if
   the version was not superseded, and a chained successor is released *)
Theorem decref_decision : forall r : Z,
  exists rest, body "Collection.rootDecRefUnlocked" = SIncDec (GVar "r.refs") false :: SIf [] (GBin ">" (GVar "r.refs") (GInt 0)) [SReturn []] [] :: rest /\
  (1 < r -> gexec 10 (upd env0 "r.refs" r) (firstn 2 (body "Collection.rootDecRefUnlocked")) = RRet []) /\
  (r = 1 -> exists rho, gexec 10 (upd env0 "r.refs" r) (firstn 2 (body "Collection.rootDecRefUnlocked")) = RFall rho /\ rho "r.refs" = Some 0).
Proof.
  intro r. eexists. split; [vm_compute; reflexivity|]. split.
  - intro Hr. gsimpl.
    assert (r - 1 >? 0 = true) as -> by (apply Z.gtb_lt; lia). reflexivity.
  - intros ->. gsimpl. eexists. split; [reflexivity|]. reflexivity.
Qed.

Theorem death_marks_unless_superseded :
  exists c, decisions "Collection.rootDecRefUnlocked" "r.superseded" = [c] /\
    forall sup : bool, gtrue (upd env0 "r.superseded" (b2z sup)) c = Some (negb sup).
Proof. eexists. split; [vm_compute; reflexivity|]. intros [|]; reflexivity. Qed.

Theorem death_releases_chain :
  exists c, decisions "Collection.rootDecRefUnlocked" "r.chainedCollection" = [c] /\
    forall a b : bool, gtrue (upd (upd env0 "r.chainedCollection" (b2z a)) "r.chainedRootNodeLoc" (b2z b)) c = Some (a && b).
Proof. eexists. split; [vm_compute; reflexivity|]. intros [|] [|]; reflexivity. Qed.

(* rootAddRef takes exactly one reference on the current version *)
Theorem addref_is_increment :
  exists pre post, body "Collection.rootAddRef" = pre ++ SIncDec (GVar "t.root.refs") true :: post /\
                   Forall (fun s => match s with SIncDec _ _ | SAssign _ _ _ => False | _ => True end) (pre ++ post).
Proof. exists [SExpr (GCall "t.rootLock.Lock" []); SDefer (GCall "t.rootLock.Unlock" [])], [SReturn [GVar "t.root"]].
  split; [vm_compute; reflexivity|]. repeat constructor. Qed.

(* the version protocol (Proto.v) in the source, statement by statement.
   rootCAS = Proto's mcas: under rootLock; fails unless the handle still shows prev; publishes next; marks prev superseded;
   chains next behind prev (one extra reference, owned by prev) iff prev has more than two references.
   rootDecRef = decref under rootLock and freeNodeLock (in that order).
   closeCollection = Proto's close: detaches the handle's version under rootLock, then drops the handle's reference. *)
Theorem protocol_functions :
  body "Collection.rootCAS" =
    [SExpr (GCall "t.rootLock.Lock" []);
     SDefer (GCall "t.rootLock.Unlock" []);
     SIf [] (GBin "!=" (GVar "t.root") (GVar "prev")) [SReturn [GVar "false"]] [];
     SAssign [GVar "t.root"] "=" [GVar "next"];
     SIf [] (GBin "!=" (GVar "prev") GNil) [SAssign [GVar "prev.superseded"] "=" [GVar "true"]] [];
     SIf [] (GBin "&&" (GBin "!=" (GVar "prev") GNil) (GBin ">" (GVar "prev.refs") (GInt 2)))
       [SIf [] (GBin "||" (GBin "!=" (GVar "prev.chainedCollection") GNil) (GBin "!=" (GVar "prev.chainedRootNodeLoc") GNil))
          [SExpr (GCall "panic" [GCall "fmt.Sprintf" [GLit """chain already taken, coll: %v"""; GCall "t.Name" []]])] [];
        SAssign [GVar "prev.chainedCollection"] "=" [GVar "t"];
        SAssign [GVar "prev.chainedRootNodeLoc"] "=" [GVar "t.root"];
        SIncDec (GVar "t.root.refs") true] [];
     SReturn [GVar "true"]] /\
  body "Collection.rootDecRef" =
    [SExpr (GCall "t.rootLock.Lock" []);
     SExpr (GCall "freeNodeLock.Lock" []);
     SExpr (GCall "t.rootDecRefUnlocked" [GVar "r"]);
     SExpr (GCall "freeNodeLock.Unlock" []);
     SExpr (GCall "t.rootLock.Unlock" [])] /\
  body "Collection.closeCollection" =
    [SIf [] (GBin "==" (GVar "t") GNil) [SReturn []] [];
     SExpr (GCall "t.rootLock.Lock" []);
     SAssign [GVar "r"] ":=" [GVar "t.root"];
     SAssign [GVar "t.root"] "=" [GNil];
     SExpr (GCall "t.rootLock.Unlock" []);
     SIf [] (GBin "!=" (GVar "r") GNil) [SExpr (GCall "t.rootDecRef" [GVar "r"])] []].
Proof. repeat apply conj; vm_compute; reflexivity. Qed.

