(* The disk model of Disk.v: what a file represents (rep), loading, that Flush only appends and its
   result decodes to the flushed trees, the backward root scan, crashes and FlushRevert, conformance
   of a flushed file to layout v4, and the no-sharing invariant (no node offset twice) that bounds the
   node budget of the decoder. *)
From GK Require Import Base Treap TreapSpec Store Codec CodecProofs Disk.
From Coq Require Import Lia ZArith NArith List Bool.
Import ListNotations.
Open Scope Z_scope.

Fixpoint persisted (t : tree) : Prop :=
  match t with
  | E => True
  | T nl l il _ _ _ r => nl <> None /\ il <> None /\ persisted l /\ persisted r
  end.

(* the persisted part of t is what the file says; a persisted node has a
   persisted item and persisted children *)
Fixpoint rep (f : file) (t : tree) : Prop :=
  match t with
  | E => True
  | T None l il it nn nb r =>
      rep f l /\ rep f r /\
      (forall q, il = Some q -> plen q = item_loc_len it /\ dec_item f q = Some it)
  | T (Some p) l il it nn nb r =>
      persisted t /\ rep f l /\ rep f r /\ plen p = node_len /\
      dec_node f p = Some (mkNodeRec il (root_loc l) (root_loc r) nn nb) /\
      (forall q, il = Some q -> plen q = item_loc_len it /\ dec_item f q = Some it /\
                                poff q + plen q <= poff p) /\
      (forall q, root_loc l = Some q -> poff q + plen q <= poff p) /\
      (forall q, root_loc r = Some q -> poff q + plen q <= poff p)
  end.

Definition loc_below (o : option ploc) (b : Z) : Prop :=
  match o with Some p => 0 <= poff p /\ poff p + plen p <= b | None => True end.

(* every Some-location occurring in t (node or item) lies in [0, b] *)
Fixpoint below (t : tree) (b : Z) : Prop :=
  match t with
  | E => True
  | T nl l il _ _ _ r => loc_below nl b /\ loc_below il b /\ below l b /\ below r b
  end.

Definition agree (f f' : file) (b : Z) : Prop :=
  forall o len, 0 <= o -> o + len <= b -> read_at f' o len = read_at f o len.

Fixpoint tree_ok (t : tree) : Prop :=
  match t with
  | E => True
  | T _ l _ it nn nb r =>
      item_ok it /\ 0 <= nn < 2 ^ 64 /\ 0 <= nb < 2 ^ 64 /\ tree_ok l /\ tree_ok r
  end.

Lemma agree_refl f b : agree f f b.
Proof. intros o len _ _. reflexivity. Qed.

Lemma agree_trans f1 f2 f3 b b' : agree f1 f2 b -> agree f2 f3 b' -> b <= b' -> agree f1 f3 b.
Proof. intros H1 H2 Hb o len Ho Hl. rewrite H2 by lia. now apply H1. Qed.

Lemma agree_mono f f' b b' : agree f f' b -> b' <= b -> agree f f' b'.
Proof. intros H Hb o len Ho Hl. apply H; lia. Qed.

Lemma agree_write_at f s d : 0 <= s <= blen f -> agree f (write_at f s d) s.
Proof. intros H o len Ho Hl. now apply read_write_below. Qed.

Lemma agree_firstn f e : agree f (firstn (Z.to_nat e) f) e.
Proof. intros o len Ho Hl. apply read_at_firstn; lia. Qed.

(* The append preorder: (f', s') extends (f, s) when nothing below s has changed, s' is a
   position of f' at or beyond s, and f' ends at s' if f ended at s.  Every step of Flush is one. *)
Definition ext (f : file) (s : Z) (f' : file) (s' : Z) : Prop :=
  agree f f' s /\ s <= s' <= blen f' /\ (blen f = s -> blen f' = s').

Lemma ext_refl f s : s <= blen f -> ext f s f s.
Proof. intros H. split; [apply agree_refl|]. split; [lia|auto]. Qed.

Lemma ext_trans f s f1 s1 f2 s2 : ext f s f1 s1 -> ext f1 s1 f2 s2 -> ext f s f2 s2.
Proof.
  intros (A1 & A2 & A3) (B1 & B2 & B3).
  split; [apply (agree_trans f f1 f2 s s1); auto; lia|]. split; [lia|auto].
Qed.

Lemma ext_write_at f s d : 0 <= s <= blen f -> ext f s (write_at f s d) (s + blen d).
Proof.
  intros H. pose proof (blen_write_at f s d H). pose proof (blen_nonneg d).
  split; [now apply agree_write_at|]. split; lia.
Qed.

Lemma loc_below_mono o b b' : loc_below o b -> b <= b' -> loc_below o b'.
Proof. destruct o; simpl; [lia|trivial]. Qed.

Lemma below_mono t : forall b b', below t b -> b <= b' -> below t b'.
Proof.
  induction t as [|nl l IHl il it nn nb r IHr]; intros b b' H Hb; [exact I|].
  cbn [below] in *. destruct H as (H1 & H2 & H3 & H4).
  repeat split; eauto using loc_below_mono.
Qed.

Lemma root_at_low f e : e <= roots_len -> root_at f e = None.
Proof. intros H. unfold root_at. now rewrite Zleb_t. Qed.

Lemma root_at_Some_gt f e m : root_at f e = Some m -> roots_len < e.
Proof.
  intros H. destruct (Z_le_gt_dec e roots_len) as [L|L]; [|lia].
  rewrite root_at_low in H by assumption. discriminate.
Qed.

Definition last_root (f : file) (size e : Z) (m : list (bytes * option ploc)) : Prop :=
  root_at f e = Some m /\ e <= size /\ forall e', e < e' <= size -> root_at f e' = None.

Lemma scan_back_spec : forall fuel f e, (Z.to_nat e < fuel)%nat ->
  match scan_back fuel f e with
  | ScanOutOfFuel => False
  | ScanNone => forall e', e' <= e -> root_at f e' = None
  | ScanFound e1 m => last_root f e e1 m
  end.
Proof.
  induction fuel as [|k IH]; intros f e Hf; [lia|].
  cbn [scan_back]. destruct (Z.leb_spec e roots_len) as [L|L].
  - intros e' He'. apply root_at_low. lia.
  - destruct (root_at f e) as [m|] eqn:Er.
    + split; [exact Er|]. split; lia.
    + change roots_len with 44 in L.
      specialize (IH f (e - 1)). destruct (scan_back k f (e - 1)) as [| |e1 m].
      * apply IH. lia.
      * intros e' He'. destruct (Z.eq_dec e' e) as [->|N]; [assumption|]. apply IH; lia.
      * destruct IH as (H1 & H2 & H3); [lia|]. split; [exact H1|]. split; [lia|].
        intros e' He'. destruct (Z.eq_dec e' e) as [->|N]; [assumption|]. apply H3; lia.
Qed.

Lemma scan_spec f size :
  match scan f size with
  | ScanOutOfFuel => False
  | ScanNone => forall e', e' <= size -> root_at f e' = None
  | ScanFound e1 m => last_root f size e1 m
  end.
Proof. unfold scan. apply scan_back_spec. lia. Qed.

Lemma scan_fuel f size : scan f size <> ScanOutOfFuel.
Proof. intros H. pose proof (scan_spec f size) as S. now rewrite H in S. Qed.

Theorem scan_total f size : 0 <= size -> scan f size <> ScanOutOfFuel.
Proof. intros _. apply scan_fuel. Qed.

Lemma scan_last_root f size e m : scan f size = ScanFound e m <-> last_root f size e m.
Proof.
  pose proof (scan_spec f size) as S. split.
  - intros H. now rewrite H in S.
  - intros (Hr & He & Hn). destruct (scan f size) as [| |e1 m1]; [contradiction| |].
    + rewrite S in Hr by assumption. discriminate.
    + destruct S as (S3 & S1 & S4).
      destruct (Z.lt_trichotomy e e1) as [L|[->|L]].
      * rewrite Hn in S3 by lia. discriminate.
      * rewrite Hr in S3. now injection S3 as ->.
      * rewrite S4 in Hr by lia. discriminate.
Qed.

Theorem scan_found f size e m : scan f size = ScanFound e m ->
  e <= size /\ roots_len < e /\ root_at f e = Some m /\
  forall e', e < e' <= size -> root_at f e' = None.
Proof.
  intros H. apply scan_last_root in H. destruct H as (Hr & He & Hn).
  pose proof (root_at_Some_gt _ _ _ Hr). auto.
Qed.

Lemma scan_none_iff f size : scan f size = ScanNone <-> forall e', e' <= size -> root_at f e' = None.
Proof.
  pose proof (scan_spec f size) as S. split.
  - intros H. now rewrite H in S.
  - intros Hn. destruct (scan f size) as [| |e m]; [contradiction|reflexivity|].
    destruct S as (S3 & S1 & _). rewrite Hn in S3 by assumption. discriminate.
Qed.

Theorem scan_none f size : 0 <= size -> scan f size = ScanNone ->
  forall e', e' <= size -> root_at f e' = None.
Proof. intros _. apply scan_none_iff. Qed.

Theorem scan_complete f size e m : root_at f e = Some m -> e <= size ->
  (forall e', e < e' <= size -> root_at f e' = None) -> scan f size = ScanFound e m.
Proof. intros Hr He Hn. apply scan_last_root. exact (conj Hr (conj He Hn)). Qed.

Theorem root_at_agree f f' e : agree f f' e -> root_at f' e = root_at f e.
Proof.
  intros H. unfold root_at. destruct (Z.leb_spec e roots_len) as [L|L]; [reflexivity|].
  change roots_len with 44 in *. change roots_end_len with 24.
  rewrite (H (e - 24) 24) by lia.
  destruct (read_at f (e - 24) 24) as [t|]; [|reflexivity].
  destruct (negb (beq (sub t 12 6) magic_end && beq (sub t 18 6) magic_end)); [reflexivity|].
  cbv zeta.
  destruct (negb _); [reflexivity|].
  rewrite (H (de (sub t 0 8)) (e - de (sub t 0 8) - 24)); [reflexivity|apply de_nonneg|lia].
Qed.

Lemma dec_item_agree f f' q it b :
  dec_item f q = Some it -> plen q = item_loc_len it -> 0 <= poff q -> poff q + plen q <= b ->
  agree f f' b -> dec_item f' q = Some it.
Proof.
  intros Hd Hl Ho Hb Hag. pose proof (item_loc_len_ge it) as Hge.
  unfold dec_item in *. change item_hdr_len with 16 in *.
  destruct (plen q <? 16); [discriminate|].
  rewrite (Hag (poff q) 16) by lia.
  destruct (read_at f (poff q) 16) as [h|]; [|discriminate].
  cbv zeta in *.
  pose proof (de_nonneg (sub h 4 4)) as Hkl. pose proof (de_nonneg (sub h 8 4)) as Hvl.
  set (kl := de (sub h 4 4)) in *. set (vl := de (sub h 8 4)) in *.
  destruct (negb _); [discriminate|].
  destruct (read_at f (poff q + 16) kl) as [k|] eqn:Ek; [|discriminate].
  destruct (read_at f (poff q + 16 + kl) vl) as [v|] eqn:Ev; [|discriminate].
  apply read_at_blen in Ek as Bk; [|assumption]. apply read_at_blen in Ev as Bv; [|assumption].
  assert (Hit : item_loc_len it = 16 + kl + vl).
  { inversion Hd; subst it. rewrite item_loc_len_eq. cbn [ikey ival]. lia. }
  rewrite (Hag (poff q + 16) kl), Ek by lia.
  rewrite (Hag (poff q + 16 + kl) vl), Ev by lia. exact Hd.
Qed.

Lemma dec_node_agree f f' p nr b :
  dec_node f p = Some nr -> 0 <= poff p -> poff p + plen p <= b ->
  agree f f' b -> dec_node f' p = Some nr.
Proof.
  intros Hd Ho Hb Hag. unfold dec_node in *.
  destruct (Z.eqb_spec (plen p) node_len) as [E|E]; [|discriminate]. cbn [negb] in *.
  rewrite (Hag (poff p) node_len) by lia. exact Hd.
Qed.

Definition item_rep (f : file) (il : option ploc) (it : item) : Prop :=
  forall q, il = Some q -> plen q = item_loc_len it /\ dec_item f q = Some it.

Lemma item_rep_stable f f' il it b :
  item_rep f il it -> loc_below il b -> agree f f' b -> item_rep f' il it.
Proof.
  intros H Hb Hag q ->. destruct (H q eq_refl) as (H1 & H2). cbn [loc_below] in Hb.
  split; [exact H1|]. apply (dec_item_agree f f' q it b); auto; lia.
Qed.

Theorem rep_stable f f' t b : rep f t -> below t b -> agree f f' b -> rep f' t.
Proof.
  intros Hrep Hb Hag. revert Hrep Hb.
  induction t as [|nl l IHl il it nn nb r IHr]; intros Hrep Hb; [exact I|].
  destruct nl as [p|]; cbn [rep below loc_below] in *.
  - destruct Hrep as (Hp & Hl & Hr & Hpl & Hdn & Hit & Hll & Hrl).
    destruct Hb as ((Hp0 & Hpb) & Hib & Hlb & Hrb).
    split; [exact Hp|]. split; [auto|]. split; [auto|]. split; [exact Hpl|].
    split; [apply (dec_node_agree f f' p _ b); auto|]. split; [|split; assumption].
    intros q Hq. destruct (Hit q Hq) as (H1 & H2 & H3). subst il. cbn [loc_below] in Hib.
    split; [assumption|]. split; [|assumption]. apply (dec_item_agree f f' q it b); auto; lia.
  - destruct Hrep as (Hl & Hr & Hit). destruct Hb as (_ & Hib & Hlb & Hrb).
    split; [auto|]. split; [auto|]. exact (item_rep_stable f f' il it b Hit Hib Hag).
Qed.

Lemma dec_node_bounds f p nr : dec_node f p = Some nr ->
  plen p = node_len /\ 0 <= poff p /\ poff p + node_len <= blen f.
Proof.
  unfold dec_node. destruct (Z.eqb_spec (plen p) node_len) as [E|E]; [|discriminate]. cbn [negb].
  destruct (read_at f (poff p) node_len) as [b|] eqn:Er; [|discriminate]. intros _.
  apply read_at_inv in Er. pose proof node_len_eq. destruct Er as (_ & [Er|Er]); lia.
Qed.

Lemma dec_item_inv f q it : dec_item f q = Some it -> 0 <= poff q.
Proof.
  unfold dec_item. destruct (plen q <? item_hdr_len); [discriminate|].
  destruct (read_at f (poff q) item_hdr_len) as [h|] eqn:Er; [|discriminate]. intros _.
  apply read_at_inv in Er. pose proof item_hdr_len_eq. destruct Er as (_ & [Er|Er]); lia.
Qed.

Lemma rep_children f nl l il it nn nb r : rep f (T nl l il it nn nb r) -> rep f l /\ rep f r.
Proof. destruct nl; cbn [rep]; tauto. Qed.

Lemma rep_item f nl l il it nn nb r : rep f (T nl l il it nn nb r) -> item_rep f il it.
Proof.
  destruct nl; cbn [rep]; [|tauto]. intros (_ & _ & _ & _ & _ & H & _) q Hq.
  destruct (H q Hq) as (H1 & H2 & _). auto.
Qed.

Lemma rep_node_inv f nl l il it nn nb r :
  rep f (T nl l il it nn nb r) -> persisted (T nl l il it nn nb r) ->
  exists p q, nl = Some p /\ il = Some q /\
    plen p = node_len /\
    dec_node f p = Some (mkNodeRec (Some q) (root_loc l) (root_loc r) nn nb) /\
    plen q = item_loc_len it /\ dec_item f q = Some it /\
    rep f l /\ rep f r /\ persisted l /\ persisted r.
Proof.
  intros Hrep (Hnl & Hil & Hpl & Hpr).
  destruct nl as [p|]; [|congruence]. destruct il as [q|]; [|congruence].
  destruct (rep_item _ _ _ _ _ _ _ _ Hrep q eq_refl) as (Q1 & Q2).
  cbn [rep] in Hrep. destruct Hrep as (_ & Hl & Hr & Hplen & Hdn & _).
  exists p, q. repeat split; auto.
Qed.

Lemma rep_root f t p : rep f t -> root_loc t = Some p ->
  plen p = node_len /\ 0 <= poff p /\ poff p + node_len <= blen f.
Proof.
  destruct t as [|nl l il it nn nb r]; [discriminate|]. cbn [root_loc]. intros Hrep ->.
  cbn [rep] in Hrep. destruct Hrep as (_ & _ & _ & _ & Hdn & _). exact (dec_node_bounds _ _ _ Hdn).
Qed.

Lemma below_children b nl l il it nn nb r : below (T nl l il it nn nb r) b ->
  loc_below il b /\ below l b /\ below r b.
Proof. cbn [below]. tauto. Qed.

Lemma below_root t b : below t b -> forall p, root_loc t = Some p -> poff p + plen p <= b.
Proof.
  destruct t as [|nl l il it nn nb r]; cbn [root_loc below]; [discriminate|].
  intros (H & _) p ->. apply H.
Qed.

(* t is stored in f below b; stable under every append step from b on *)
Definition stored (f : file) (b : Z) (t : tree) : Prop := rep f t /\ below t b.

Lemma stored_stable f f' b b' t : stored f b t -> agree f f' b -> b <= b' -> stored f' b' t.
Proof. intros (H1 & H2) Hag Hle. split; [exact (rep_stable f f' t b H1 H2 Hag)|exact (below_mono t b b' H2 Hle)]. Qed.

Lemma stored_ext f b t f' b' : stored f b t -> ext f b f' b' -> stored f' b' t.
Proof. intros H (Hag & Hle & _). apply (stored_stable f f' b b' t H Hag). lia. Qed.

Lemma item_rep_ext f b il it f' b' :
  item_rep f il it -> loc_below il b -> ext f b f' b' -> item_rep f' il it /\ loc_below il b'.
Proof.
  intros H Hb (Hag & Hle & _).
  split; [exact (item_rep_stable f f' il it b H Hb Hag)|apply (loc_below_mono il b); [exact Hb|lia]].
Qed.

Lemma stored_dirty f b l il it nn nb r :
  stored f b (T None l il it nn nb r) <->
  stored f b l /\ stored f b r /\ item_rep f il it /\ loc_below il b.
Proof. unfold stored, item_rep. cbn [rep below loc_below]. tauto. Qed.

Lemma stored_node f b p l q it nn nb r :
  stored f (poff p) l -> stored f (poff p) r -> persisted l -> persisted r ->
  plen p = node_len -> dec_node f p = Some (mkNodeRec (Some q) (root_loc l) (root_loc r) nn nb) ->
  plen q = item_loc_len it -> dec_item f q = Some it -> poff q + plen q <= poff p ->
  poff p + plen p <= b -> stored f b (T (Some p) l (Some q) it nn nb r).
Proof.
  intros (Rl & Bl) (Rr & Br) Pl Pr Hpl Hdn Hql Hdi Hqp Hpb.
  destruct (dec_node_bounds _ _ _ Hdn) as (_ & Hp0 & _). pose proof (dec_item_inv _ _ _ Hdi) as Hq0.
  pose proof node_len_eq. split.
  - cbn [rep persisted]. split; [repeat split; auto; discriminate|].
    split; [exact Rl|]. split; [exact Rr|]. split; [exact Hpl|]. split; [exact Hdn|].
    split; [intros q' [= <-]; auto|]. split; intros c Hc; [exact (below_root _ _ Bl c Hc)|exact (below_root _ _ Br c Hc)].
  - cbn [below loc_below]. split; [lia|]. split; [lia|]. split; eapply below_mono; eauto; lia.
Qed.

Lemma load_None d f b bud : load d f None b bud = Some (E, bud).
Proof. destruct d; reflexivity. Qed.

(* the node budget is spent exactly: one unit per node of the tree, and a smaller budget fails *)
Lemma load_rep_gen f : forall t depth budget b,
  rep f t -> persisted t -> (forall p, root_loc t = Some p -> poff p + plen p <= b) ->
  (height t <= depth)%nat ->
  load depth f (root_loc t) b budget =
  if (size t <=? budget)%nat then Some (t, (budget - size t)%nat) else None.
Proof.
  induction t as [|nl l IHl il it nn nb r IHr]; intros depth budget b Hrep Hper Hb Hh.
  - cbn [root_loc size]. rewrite load_None, Nat.sub_0_r. reflexivity.
  - cbn [persisted] in Hper. destruct Hper as (Hnl & Hil & Hpl & Hpr).
    destruct nl as [p|]; [|congruence]. destruct il as [q|]; [|congruence].
    cbn [rep] in Hrep. destruct Hrep as (_ & Hl & Hr & Hplen & Hdn & Hit & Hll & Hrl).
    destruct (Hit q eq_refl) as (Hq1 & Hq2 & Hq3).
    cbn [size height] in Hh |- *.
    destruct depth as [|k]; [lia|]. destruct budget as [|bud]; [reflexivity|].
    cbn [root_loc load].
    rewrite Zleb_t by now apply Hb. cbn [negb]. rewrite Hdn. cbn [nr_item nr_left nr_right nr_nn nr_nb].
    rewrite Zleb_t by assumption. cbn [negb]. rewrite Hq2, (IHl k bud (poff p)) by (auto; lia).
    change (S (size l + size r) <=? S bud)%nat with (size l + size r <=? bud)%nat.
    destruct (Nat.leb_spec (size l) bud) as [Hsl|Hsl].
    + rewrite (IHr k (bud - size l)%nat (poff p)) by (auto; lia).
      destruct (Nat.leb_spec (size r) (bud - size l)); destruct (Nat.leb_spec (size l + size r) bud);
        try lia; [|reflexivity].
      do 2 f_equal. lia.
    + destruct (Nat.leb_spec (size l + size r) bud); [lia|reflexivity].
Qed.

Theorem load_rep f t b depth budget :
  rep f t -> persisted t -> below t b -> (size t <= budget)%nat -> (height t <= depth)%nat ->
  load depth f (root_loc t) b budget = Some (t, (budget - size t)%nat).
Proof.
  intros Hr Hp Hb Hs Hh. rewrite (load_rep_gen f t depth budget b) by (auto; now apply below_root).
  apply Nat.leb_le in Hs. now rewrite Hs.
Qed.

Lemma load_Some_inv d f p b bud t rem : load d f (Some p) b bud = Some (t, rem) ->
  exists k bud' nr il it lt b1 rt, d = S k /\ bud = S bud' /\ poff p + plen p <= b /\
    dec_node f p = Some nr /\ nr_item nr = Some il /\ poff il + plen il <= poff p /\
    dec_item f il = Some it /\ load k f (nr_left nr) (poff p) bud' = Some (lt, b1) /\
    load k f (nr_right nr) (poff p) b1 = Some (rt, rem) /\
    t = T (Some p) lt (Some il) it (nr_nn nr) (nr_nb nr) rt.
Proof.
  destruct d as [|k]; [discriminate|]. destruct bud as [|bud]; [discriminate|]. cbn [load].
  destruct (Z.leb_spec (poff p + plen p) b); [|discriminate]. cbn [negb].
  destruct (dec_node f p) as [nr|]; [|discriminate].
  destruct (nr_item nr) as [il|] eqn:?; [|discriminate].
  destruct (Z.leb_spec (poff il + plen il) (poff p)); [|discriminate]. cbn [negb].
  destruct (dec_item f il) as [it|] eqn:?; [|discriminate].
  destruct (load k f (nr_left nr) (poff p) bud) as [[lt b1]|] eqn:?; [|discriminate].
  destruct (load k f (nr_right nr) (poff p) b1) as [[rt b2]|] eqn:?; [|discriminate].
  intros [= <- <-]. do 8 eexists. repeat split; eauto.
Qed.

Lemma load_facts : forall d f l b bud t rem, load d f l b bud = Some (t, rem) ->
  root_loc t = l /\ persisted t /\ (size t + rem = bud)%nat /\ (height t <= d)%nat.
Proof.
  induction d as [|k IH]; intros f [p|] b bud t rem H;
    try (rewrite load_None in H; injection H as <- <-; cbn; repeat split; lia); [discriminate|].
  apply load_Some_inv in H.
  destruct H as (k' & bud' & nr & il & it & lt & b1 & rt & [= <-] & -> & _ & _ & _ & _ & _ & El & Er & ->).
  apply IH in El, Er. cbn [root_loc persisted size height].
  repeat split; try discriminate; try tauto; lia.
Qed.

Lemma load_root_loc d f l b bud t rem : load d f l b bud = Some (t, rem) -> root_loc t = l.
Proof. intros H. apply (load_facts _ _ _ _ _ _ _ H). Qed.

Lemma load_persisted d f l b bud t rem : load d f l b bud = Some (t, rem) -> persisted t.
Proof. intros H. apply (load_facts _ _ _ _ _ _ _ H). Qed.

(* soundness of load: a loaded tree whose records have consistent lengths (locs_b,
   as checked by conforms_v4) is represented by the file *)
Theorem load_sound : forall d f l b bud t rem,
  load d f l b bud = Some (t, rem) -> locs_b t = true -> rep f t /\ below t b.
Proof.
  induction d as [|k IH]; intros f [p|] b bud t rem H Hlocs;
    try (rewrite load_None in H; injection H as <- <-; split; exact I); [discriminate|].
  apply load_Some_inv in H.
  destruct H as (k' & bud' & nr & il & it & lt & b1 & rt & [= <-] & -> & Hpb & Edn & Eil & Hib & Edi & El & Er & ->).
  destruct nr as [ni nl nr nn nb]. cbn [nr_item nr_left nr_right nr_nn nr_nb] in *. subst ni.
  cbn [locs_b] in Hlocs. apply andb_prop in Hlocs as (Hlocs & Hlr).
  apply andb_prop in Hlocs as (Hlocs & Hll). apply andb_prop in Hlocs as (Hpn & Hqn).
  apply Z.eqb_eq in Hpn, Hqn.
  rewrite <- (load_root_loc _ _ _ _ _ _ _ El), <- (load_root_loc _ _ _ _ _ _ _ Er) in Edn.
  exact (stored_node f b p lt il it nn nb rt (IH _ _ _ _ _ _ El Hll) (IH _ _ _ _ _ _ Er Hlr)
           (load_persisted _ _ _ _ _ _ _ El) (load_persisted _ _ _ _ _ _ _ Er) Hpn Edn Hqn Edi Hib Hpb).
Qed.

Lemma rep_height f : forall t, rep f t -> persisted t ->
  match root_loc t with
  | Some p => Z.of_nat (height t) * node_len <= poff p + plen p
  | None => height t = 0%nat
  end.
Proof.
  induction t as [|nl l IHl il it nn nb r IHr]; intros Hrep Hper; [reflexivity|].
  cbn [persisted] in Hper. destruct Hper as (Hnl & Hil & Hpl & Hpr).
  destruct nl as [p|]; [|congruence].
  cbn [rep] in Hrep. destruct Hrep as (_ & Hl & Hr & Hplen & Hdn & Hit & Hll & Hrl).
  destruct (dec_node_bounds _ _ _ Hdn) as (_ & Hp0 & _).
  specialize (IHl Hl Hpl). specialize (IHr Hr Hpr).
  cbn [root_loc height]. rewrite Hplen. change node_len with 52 in *.
  assert (Z.of_nat (height l) * 52 <= poff p).
  { destruct (root_loc l) as [ql|]; [specialize (Hll ql eq_refl); lia|lia]. }
  assert (Z.of_nat (height r) * 52 <= poff p).
  { destruct (root_loc r) as [qr|]; [specialize (Hrl qr eq_refl); lia|lia]. }
  lia.
Qed.

(* so the fuel S (length f) of minmax_reads, and of a load, is always enough: node records are 52 bytes long *)
Lemma rep_height_le_file f t : rep f t -> persisted t -> (height t <= length f)%nat.
Proof.
  intros Hrep Hper. pose proof (rep_height f t Hrep Hper) as H.
  destruct (root_loc t) as [p|] eqn:E; [|lia].
  destruct (rep_root f t p Hrep E) as (Hpl & _ & Hpf). change node_len with 52 in *. unfold blen in Hpf. lia.
Qed.

Lemma load_rep_file f t b :
  rep f t -> persisted t -> below t b -> (size t <= S (length f))%nat ->
  load (S (length f)) f (root_loc t) b (S (length f)) = Some (t, (S (length f) - size t)%nat).
Proof.
  intros Hrep Hper Hb Hs. pose proof (rep_height_le_file f t Hrep Hper).
  apply load_rep; auto; lia.
Qed.

Definition locs_of (cs : list (bytes * tree)) : list (bytes * option ploc) :=
  map (fun nt => (fst nt, root_loc (snd nt))) cs.

Lemma load_all_rep f bound : forall cs,
  Forall (fun nt => rep f (snd nt) /\ persisted (snd nt) /\ below (snd nt) bound /\
                    (size (snd nt) <= S (length f))%nat) cs ->
  load_all f (locs_of cs) bound = Some cs.
Proof.
  induction 1 as [|[n t] cs (Hr & Hp & Hbl & Hs) Hcs IH]; [reflexivity|].
  cbn [locs_of map load_all fst snd] in *. fold (locs_of cs). now rewrite IH, load_rep_file.
Qed.

Lemma load_all_inv f bound : forall m cs, load_all f m bound = Some cs ->
  m = locs_of cs /\ Forall (fun nt => persisted (snd nt) /\ (size (snd nt) <= S (length f))%nat) cs.
Proof.
  induction m as [|[n p] m IH]; intros cs H.
  - inversion H. split; [reflexivity|constructor].
  - cbn [load_all] in H.
    destruct (load (S (length f)) f p bound (S (length f))) as [[t rem]|] eqn:El; [|discriminate].
    destruct (load_all f m bound) as [r|]; [|discriminate].
    inversion H; subst. destruct (IH r eq_refl) as (-> & Hf).
    destruct (load_facts _ _ _ _ _ _ _ El) as (<- & Hp & Hs & _).
    split; [reflexivity|]. constructor; [|assumption]. split; [exact Hp|cbn [snd]; lia].
Qed.

Lemma decode_store_found f e m cs :
  scan f (blen f) = ScanFound e m -> load_all f m e = Some cs -> decode_store f = OpOk e cs.
Proof.
  intros Hs Hl. destruct (scan_found _ _ _ _ Hs) as (Hle & Hgt & _). pose proof roots_len_eq.
  unfold decode_store. destruct (Z.eqb_spec (blen f) 0); [lia|]. now rewrite Hs, Hl.
Qed.

Theorem crash_recovers_previous f0 f' e0 m0 :
  scan f0 (blen f0) = ScanFound e0 m0 -> agree f0 f' e0 -> e0 <= blen f' ->
  (forall e', e0 < e' <= blen f' -> root_at f' e' = None) ->
  scan f' (blen f') = ScanFound e0 m0.
Proof.
  intros Hs Hag He Hn. apply scan_found in Hs. destruct Hs as (_ & _ & Hr & _).
  apply scan_complete; auto. now rewrite (root_at_agree f0 f' e0 Hag).
Qed.

(* "Every tree in cs is below e0" would not be enough.
   (1) dec_item reads the key and value lengths from the record header, not from
       the item's ploc, so an item record may extend beyond its ploc and even
       beyond e0 (Counterex.crash_cex_overrun); hence [rep f0 t], which includes
       plen q = item_loc_len it.
   (2) load_all f' uses the budget S (length f'), which may be smaller than
       the budget S (length f0) when the file has shared subtrees
       (Counterex.crash_cex_budget); hence size t <= S (length f'), automatic when
       length f0 <= length f' (crash_same_trees_grow). *)
Theorem crash_same_trees f0 f' e0 m0 cs :
  agree f0 f' e0 -> load_all f0 m0 e0 = Some cs ->
  Forall (fun nt => rep f0 (snd nt) /\ below (snd nt) e0 /\ (size (snd nt) <= S (length f'))%nat) cs ->
  load_all f' m0 e0 = Some cs.
Proof.
  intros Hag Hl Hcs. apply load_all_inv in Hl. destruct Hl as (-> & Hper).
  apply load_all_rep.
  rewrite Forall_forall in *. intros nt Hin. destruct (Hcs nt Hin) as (H1 & H2 & H3).
  destruct (Hper nt Hin) as (H4 & _). repeat split; auto.
  eapply rep_stable; eauto.
Qed.

Corollary crash_same_trees_grow f0 f' e0 m0 cs :
  scan f0 (blen f0) = ScanFound e0 m0 -> agree f0 f' e0 -> blen f0 <= blen f' ->
  load_all f0 m0 e0 = Some cs ->
  Forall (fun nt => rep f0 (snd nt) /\ below (snd nt) e0) cs ->
  load_all f' m0 e0 = Some cs.
Proof.
  intros _ Hag He Hl Hcs. apply (crash_same_trees f0 f' e0 m0 cs Hag Hl).
  pose proof (load_all_inv _ _ _ _ Hl) as (_ & Hsz).
  rewrite Forall_forall in *. intros nt Hin. destruct (Hcs nt Hin) as (H1 & H2).
  destruct (Hsz nt Hin) as (_ & H3). unfold blen in He. repeat split; auto. lia.
Qed.

Theorem crash_decode_store f0 f' e0 m0 cs :
  scan f0 (blen f0) = ScanFound e0 m0 -> agree f0 f' e0 -> e0 <= blen f' ->
  (forall e', e0 < e' <= blen f' -> root_at f' e' = None) ->
  load_all f0 m0 e0 = Some cs ->
  Forall (fun nt => rep f0 (snd nt) /\ below (snd nt) e0 /\ (size (snd nt) <= S (length f'))%nat) cs ->
  decode_store f0 = OpOk e0 cs /\ decode_store f' = OpOk e0 cs.
Proof.
  intros Hs Hag He Hn Hl Hcs. split; [exact (decode_store_found _ _ _ _ Hs Hl)|].
  exact (decode_store_found _ _ _ _ (crash_recovers_previous _ _ _ _ Hs Hag He Hn)
           (crash_same_trees _ _ _ _ _ Hag Hl Hcs)).
Qed.

Theorem no_roots_stays_none f' :
  (forall e', e' <= blen f' -> root_at f' e' = None) -> 0 < blen f' -> decode_store f' = OpNoRoots.
Proof.
  intros Hn Hpos. unfold decode_store. destruct (Z.eqb_spec (blen f') 0); [lia|].
  now rewrite (proj2 (scan_none_iff f' (blen f')) Hn).
Qed.


(* the tree without its locations: what Flush must preserve *)
Fixpoint erase (t : tree) : tree :=
  match t with
  | E => E
  | T _ l _ it nn nb r => T None (erase l) None it nn nb (erase r)
  end.

Lemma erase_elems t : elems (erase t) = elems t.
Proof. induction t as [|nl l IHl il it nn nb r IHr]; cbn [erase elems]; congruence. Qed.
Lemma erase_shape t : shape_of (erase t) = shape_of t.
Proof. induction t as [|nl l IHl il it nn nb r IHr]; cbn [erase shape_of]; congruence. Qed.
Lemma erase_num t : num (erase t) = num t.
Proof. destruct t; reflexivity. Qed.
Lemma erase_nby t : nby (erase t) = nby t.
Proof. destruct t; reflexivity. Qed.
Lemma erase_size t : size (erase t) = size t.
Proof. induction t as [|nl l IHl il it nn nb r IHr]; cbn [erase size]; congruence. Qed.
Lemma erase_tree_ok t : tree_ok (erase t) <-> tree_ok t.
Proof. induction t as [|nl l IHl il it nn nb r IHr]; cbn [erase tree_ok]; tauto. Qed.

Lemma erase_eq_congr {A} (g : tree -> A) : (forall t, g (erase t) = g t) ->
  forall t t', erase t' = erase t -> g t' = g t.
Proof. intros Hg t t' H. now rewrite <- (Hg t'), H. Qed.

Lemma erase_eq_elems t t' : erase t' = erase t -> elems t' = elems t.
Proof. exact (erase_eq_congr elems erase_elems t t'). Qed.
Lemma erase_aggs t : aggs (erase t) <-> aggs t.
Proof.
  induction t as [|nl l IHl il it nn nb r IHr]; [reflexivity|].
  cbn [erase aggs size elems]. rewrite !erase_size, !erase_elems. tauto.
Qed.

Lemma erase_eq_iff (P : tree -> Prop) : (forall t, P (erase t) <-> P t) ->
  forall t t', erase t' = erase t -> P t -> P t'.
Proof. intros HP t t' H Ht. apply HP. rewrite H. now apply HP. Qed.

Lemma erase_eq_tree_ok t t' : erase t' = erase t -> tree_ok t -> tree_ok t'.
Proof. exact (erase_eq_iff tree_ok erase_tree_ok t t'). Qed.
Lemma erase_eq_aggs t t' : erase t' = erase t -> aggs t -> aggs t'.
Proof. exact (erase_eq_iff aggs erase_aggs t t'). Qed.

(* after write_items every item of an unpersisted node has a location *)
Fixpoint located (t : tree) : Prop :=
  match t with
  | E => True
  | T None l il _ _ _ r => il <> None /\ located l /\ located r
  | T (Some _) _ _ _ _ _ _ => True
  end.

Definition oloc_off (o : option ploc) : list Z :=
  match o with Some p => [poff p] | None => [] end.

Fixpoint node_offs (t : tree) : list Z :=
  match t with
  | E => []
  | T nl l _ _ _ _ r => oloc_off nl ++ node_offs l ++ node_offs r
  end.

(* the item step of write_items: the item record is appended unless the item has a location *)
Definition put_item (f : file) (s : Z) (il : option ploc) (it : item) : file * Z * option ploc :=
  match il with
  | Some _ => (f, s, il)
  | None => (write_at f s (enc_item it), s + item_loc_len it, Some (mkPloc s (item_loc_len it)))
  end.

Lemma write_items_dirty f s l il it nn nb r :
  write_items f s (T None l il it nn nb r) =
  let '(f1, s1, l') := write_items f s l in
  let '(f2, s2, il') := put_item f1 s1 il it in
  let '(f3, s3, r') := write_items f2 s2 r in (f3, s3, T None l' il' it nn nb r').
Proof. cbn [write_items]. destruct (write_items f s l) as [[f1 s1] l']. destruct il; reflexivity. Qed.

Lemma put_item_shape f s il it f2 s2 il' : put_item f s il it = (f2, s2, il') -> s <= s2 /\ il' <> None.
Proof.
  pose proof (item_loc_len_ge it). destruct il; intros [= <- <- <-]; split; try discriminate; lia.
Qed.

(* what write_items does to the tree, whatever the file *)
Lemma write_items_shape : forall t f s f1 s1 t1, write_items f s t = (f1, s1, t1) ->
  s <= s1 /\ located t1 /\ node_offs t1 = node_offs t /\ erase t1 = erase t.
Proof.
  induction t as [|[p|] l IHl il it nn nb r IHr]; intros f s f3 s3 t3 H;
    try (injection H as <- <- <-; repeat split; lia).
  rewrite write_items_dirty in H.
  destruct (write_items f s l) as [[f1 s1] l'] eqn:El. destruct (put_item f1 s1 il it) as [[f2 s2] il'] eqn:Ei.
  destruct (write_items f2 s2 r) as [[f3' s3'] r'] eqn:Er. injection H as <- <- <-.
  destruct (IHl _ _ _ _ _ El) as (L1 & L2 & L3 & L4). destruct (IHr _ _ _ _ _ Er) as (R1 & R2 & R3 & R4).
  destruct (put_item_shape _ _ _ _ _ _ _ Ei) as (I1 & I2).
  cbn [located node_offs erase]. rewrite L3, L4, R3, R4. repeat split; auto. lia.
Qed.

Lemma write_items_mono t f size f1 s1 t1 : write_items f size t = (f1, s1, t1) -> size <= s1.
Proof. intros H. apply (write_items_shape _ _ _ _ _ _ H). Qed.

Lemma write_items_offs t f size f1 s1 t1 : write_items f size t = (f1, s1, t1) -> node_offs t1 = node_offs t.
Proof. intros H. apply (write_items_shape _ _ _ _ _ _ H). Qed.

Lemma write_nodes_shape : forall t f s f1 s1 t1, write_nodes f s t = (f1, s1, t1) ->
  s <= s1 /\ erase t1 = erase t.
Proof.
  induction t as [|[p|] l IHl il it nn nb r IHr]; intros f s f3 s3 t3 H; cbn [write_nodes] in H;
    try (injection H as <- <- <-; split; [lia|reflexivity]).
  destruct (write_nodes f s l) as [[f1 s1] l'] eqn:El. destruct (write_nodes f1 s1 r) as [[f2 s2] r'] eqn:Er.
  injection H as <- <- <-. destruct (IHl _ _ _ _ _ El) as (L1 & L2). destruct (IHr _ _ _ _ _ Er) as (R1 & R2).
  pose proof node_len_eq. cbn [erase]. rewrite L2, R2. split; [lia|reflexivity].
Qed.

Lemma write_nodes_mono t f size f1 s1 t1 : write_nodes f size t = (f1, s1, t1) -> size <= s1.
Proof. intros H. apply (write_nodes_shape _ _ _ _ _ _ H). Qed.

Lemma append_facts f s d : 0 <= s <= blen f ->
  agree f (write_at f s d) s /\ s + blen d <= blen (write_at f s d) /\
  (blen f = s -> blen (write_at f s d) = s + blen d) /\
  read_at (write_at f s d) s (blen d) = Some d.
Proof.
  intros H. destruct (ext_write_at f s d H) as (A1 & A2 & A3).
  split; [exact A1|]. split; [lia|]. split; [exact A3|now apply read_write_same].
Qed.

Lemma put_item_spec f s il it f2 s2 il' :
  0 <= s <= blen f -> item_ok it -> item_rep f il it -> loc_below il s ->
  put_item f s il it = (f2, s2, il') ->
  ext f s f2 s2 /\ item_rep f2 il' it /\ loc_below il' s2.
Proof.
  intros Hs Hok Hrep Hb H. destruct il as [q|]; injection H as <- <- <-.
  - split; [apply ext_refl; lia|]. split; assumption.
  - rewrite <- blen_enc_item. split; [now apply ext_write_at|]. rewrite blen_enc_item. split.
    + intros q [= <-]. split; [reflexivity|]. apply dec_item_enc; [assumption|lia|].
      rewrite <- blen_enc_item. now apply read_write_same.
    + cbn [loc_below poff plen]. lia.
Qed.

Lemma write_items_spec : forall t f size f1 s1 t1,
  stored f size t -> 0 <= size <= blen f -> tree_ok t ->
  write_items f size t = (f1, s1, t1) -> ext f size f1 s1 /\ stored f1 s1 t1.
Proof.
  induction t as [|[p|] l IHl il it nn nb r IHr]; intros f s f3 s3 t3 Hst Hsz Hok H;
    try (injection H as <- <- <-; split; [apply ext_refl; lia|exact Hst]).
  rewrite write_items_dirty in H.
  destruct (write_items f s l) as [[f1 s1] l'] eqn:El. destruct (put_item f1 s1 il it) as [[f2 s2] il'] eqn:Ei.
  destruct (write_items f2 s2 r) as [[f3' s3'] r'] eqn:Er. injection H as <- <- <-.
  destruct (proj1 (stored_dirty _ _ _ _ _ _ _ _) Hst) as (Sl & Sr & Hit & Hib).
  destruct Hok as (Hiok & _ & _ & Hlok & Hrok).
  destruct (IHl _ _ _ _ _ Sl Hsz Hlok El) as (X1 & L1). pose proof X1 as (_ & Hle1 & _).
  destruct (item_rep_ext _ _ _ _ _ _ Hit Hib X1) as (Hit1 & Hib1).
  destruct (put_item_spec f1 s1 il it f2 s2 il' ltac:(lia) Hiok Hit1 Hib1 Ei) as (X2 & I1 & I2).
  pose proof (ext_trans _ _ _ _ _ _ X1 X2) as X12. pose proof X12 as (_ & Hle2 & _).
  destruct (IHr f2 s2 _ _ _ (stored_ext _ _ _ _ _ Sr X12) ltac:(lia) Hrok Er) as (X3 & R3).
  split; [exact (ext_trans _ _ _ _ _ _ X12 X3)|]. apply stored_dirty.
  split; [exact (stored_ext _ _ _ _ _ L1 (ext_trans _ _ _ _ _ _ X2 X3))|]. split; [exact R3|].
  exact (item_rep_ext _ _ _ _ _ _ I1 I2 X3).
Qed.

Lemma root_loc_ok f t b : stored f b t -> b < two63 -> oploc_ok (root_loc t).
Proof.
  intros (Hrep & Hb) Hlt. destruct (root_loc t) as [p|] eqn:E; [|exact I].
  destruct (rep_root f t p Hrep E) as (Hpl & H0 & _). pose proof (below_root t b Hb p E).
  pose proof node_len_eq. unfold oploc_ok, ploc_ok. rewrite two32_eq. lia.
Qed.

Lemma write_nodes_spec : forall t f size f1 s1 t1,
  stored f size t -> located t -> 0 <= size <= blen f -> tree_ok t ->
  write_nodes f size t = (f1, s1, t1) -> s1 < two63 ->
  ext f size f1 s1 /\ stored f1 s1 t1 /\ persisted t1.
Proof.
  induction t as [|[p|] l IHl il it nn nb r IHr]; intros f s f3 s3 t3 Hst Hloc Hsz Hok H H63;
    cbn [write_nodes] in H.
  - injection H as <- <- <-. split; [apply ext_refl; lia|]. split; [exact Hst|exact I].
  - injection H as <- <- <-. split; [apply ext_refl; lia|]. split; [exact Hst|apply Hst].
  - destruct (write_nodes f s l) as [[f1 s1] l'] eqn:El. destruct (write_nodes f1 s1 r) as [[f2 s2] r'] eqn:Er.
    injection H as <- <- <-.
    pose proof (write_nodes_mono _ _ _ _ _ _ Er) as Hm2. pose proof node_len_eq as Hnl.
    destruct (proj1 (stored_dirty _ _ _ _ _ _ _ _) Hst) as (Sl & Sr & Hit & Hib).
    destruct Hloc as (Hil & Hlloc & Hrloc). destruct Hok as (Hiok & Hnn & Hnb & Hlok & Hrok).
    destruct (IHl _ _ _ _ _ Sl Hlloc Hsz Hlok El ltac:(lia)) as (X1 & L1 & P1).
    pose proof X1 as (_ & Hle1 & _).
    destruct (IHr f1 s1 _ _ _ (stored_ext _ _ _ _ _ Sr X1) Hrloc ltac:(lia) Hrok Er ltac:(lia))
      as (X2 & R1 & P2).
    pose proof X2 as (_ & Hle2 & _).
    set (d := enc_node il (root_loc l') (root_loc r') nn nb).
    pose proof (ext_write_at f2 s2 d ltac:(lia)) as X3.
    pose proof (read_write_same f2 s2 d ltac:(lia)) as Hrd.
    unfold d in X3, Hrd. rewrite blen_enc_node in X3, Hrd. fold d in X3, Hrd.
    pose proof (ext_trans _ _ _ _ _ _ (ext_trans _ _ _ _ _ _ X1 X2) X3) as X.
    destruct il as [q|]; [|congruence].
    destruct (item_rep_ext _ _ _ _ _ _ Hit Hib X) as (Hit3 & _). destruct (Hit3 q eq_refl) as (Q1 & Q2).
    cbn [loc_below] in Hib.
    assert (S3 : stored (write_at f2 s2 d) (s2 + node_len) (T (Some (mkPloc s2 node_len)) l' (Some q) it nn nb r')).
    { apply stored_node; cbn [poff plen]; auto; try lia.
      - exact (stored_stable _ _ _ _ _ L1 (proj1 (ext_trans _ _ _ _ _ _ X2 X3)) (proj1 Hle2)).
      - exact (stored_stable _ _ _ _ _ R1 (proj1 X3) (Z.le_refl s2)).
      - apply dec_node_enc; auto; try lia.
        + destruct Hiok as (_ & _ & Hi32 & _). pose proof (item_loc_len_ge it).
          cbn [oploc_ok]. unfold ploc_ok. rewrite Q1. lia.
        + apply (root_loc_ok f1 l' s1 L1). lia.
        + apply (root_loc_ok f2 r' s2 R1). lia. }
    exact (conj X (conj S3 (proj1 (proj1 S3)))).
Qed.

Lemma write_tree_post f size t f' size' t' :
  rep f t -> below t size -> 0 <= size <= blen f -> tree_ok t -> size' < two63 ->
  write_tree f size t = (f', size', t') ->
  ext f size f' size' /\ stored f' size' t' /\ erase t' = erase t /\ persisted t'.
Proof.
  intros Hrep Hbl Hsz Hok H63 H. unfold write_tree in H.
  destruct (write_items f size t) as [[f1 s1] t1] eqn:E1.
  destruct (write_items_spec _ _ _ _ _ _ (conj Hrep Hbl) Hsz Hok E1) as (X1 & S1).
  destruct (write_items_shape _ _ _ _ _ _ E1) as (_ & L1 & _ & Er1).
  destruct (write_nodes_shape _ _ _ _ _ _ H) as (_ & Er2). pose proof X1 as (_ & Hle1 & _).
  destruct (write_nodes_spec _ _ _ _ _ _ S1 L1 ltac:(lia) (erase_eq_tree_ok _ _ Er1 Hok) H H63)
    as (X2 & S2 & Hper).
  exact (conj (ext_trans _ _ _ _ _ _ X1 X2) (conj S2 (conj (eq_trans Er2 Er1) Hper))).
Qed.

(* the size bound is on the final size; if the file had no bytes beyond size, neither has f' *)
Theorem write_tree_spec f size t f' size' t' :
  rep f t -> below t size -> 0 <= size <= blen f -> tree_ok t -> size' < two63 ->
  write_tree f size t = (f', size', t') ->
  agree f f' size /\ size <= size' /\ size' <= blen f' /\ persisted t' /\ rep f' t' /\ below t' size' /\
  elems t' = elems t /\ shape_of t' = shape_of t /\ num t' = num t /\ nby t' = nby t /\
  (blen f = size -> blen f' = size').
Proof.
  intros Hrep Hbl Hsz Hok H63 H.
  destruct (write_tree_post _ _ _ _ _ _ Hrep Hbl Hsz Hok H63 H) as ((A1 & A2 & A3) & (A4 & A5) & A6 & Hper).
  repeat split; try lia; auto using erase_eq_elems, (erase_eq_congr shape_of erase_shape), (erase_eq_congr num erase_num), (erase_eq_congr nby erase_nby).
Qed.

(* A sufficient condition for the node budget of flush_decodes / flush_conforms: no node
   record is shared inside a tree (the offsets of its persisted nodes are pairwise
   distinct).  The condition is preserved by write_tree. *)
Lemma offs_range f : forall t b, rep f t -> below t b -> forall o, In o (node_offs t) -> 0 <= o < b.
Proof.
  induction t as [|nl l IHl il it nn nb r IHr]; intros b Hrep Hb o Hin; [destruct Hin|].
  destruct (rep_children _ _ _ _ _ _ _ _ Hrep) as (Hl & Hr).
  destruct (below_children _ _ _ _ _ _ _ _ Hb) as (_ & Hlb & Hrb).
  cbn [node_offs] in Hin. apply in_app_or in Hin. destruct Hin as [Hin|Hin].
  - destruct nl as [p|]; [|destruct Hin]. destruct Hin as [<-|[]].
    destruct (rep_root f _ p Hrep eq_refl) as (Hpl & H0 & _). pose proof (below_root _ _ Hb p eq_refl).
    pose proof node_len_eq. lia.
  - apply in_app_or in Hin. destruct Hin; eauto.
Qed.

Lemma persisted_size_offs t : persisted t -> size t = length (node_offs t).
Proof.
  induction t as [|nl l IHl il it nn nb r IHr]; [reflexivity|].
  intros (Hnl & _ & Hl & Hr). destruct nl as [p|]; [|congruence].
  cbn [size node_offs oloc_off app length]. rewrite app_length, IHl, IHr by assumption. reflexivity.
Qed.

Lemma pigeon (l : list Z) (n : Z) : NoDup l -> (forall o, In o l -> 0 <= o < n) ->
  Z.of_nat (length l) <= Z.max 0 n.
Proof.
  intros Hnd Hr.
  assert (Hi : incl l (map Z.of_nat (seq 0 (Z.to_nat n)))).
  { intros o Ho. apply Hr in Ho. apply in_map_iff. exists (Z.to_nat o). split; [lia|]. apply in_seq. lia. }
  pose proof (NoDup_incl_length Hnd Hi) as H. rewrite map_length, seq_length in H. lia.
Qed.

Theorem size_le_offsets f t b : rep f t -> persisted t -> below t b -> NoDup (node_offs t) ->
  Z.of_nat (size t) <= Z.max 0 b.
Proof.
  intros Hrep Hper Hb Hnd. rewrite (persisted_size_offs t Hper).
  apply pigeon; [assumption|]. now apply (offs_range f t b).
Qed.

(* in any context of other offsets: the new offsets lie above every old one *)
Lemma write_nodes_offs : forall t f size f1 s1 t1 L R,
  write_nodes f size t = (f1, s1, t1) ->
  NoDup (L ++ node_offs t ++ R) -> Forall (fun o => o < size) (L ++ node_offs t ++ R) ->
  NoDup (L ++ node_offs t1 ++ R) /\ Forall (fun o => o < s1) (L ++ node_offs t1 ++ R).
Proof.
  induction t as [|[p|] l IHl il it nn nb r IHr]; intros f size f3 s3 t3 L R H Hnd Hlt;
    cbn [write_nodes] in H; try (injection H as <- <- <-; split; assumption).
  destruct (write_nodes f size l) as [[f1 s1] l'] eqn:El. destruct (write_nodes f1 s1 r) as [[f2 s2] r'] eqn:Er.
  injection H as <- <- <-. cbn [node_offs oloc_off app poff] in *. rewrite <- app_assoc in Hnd, Hlt.
  destruct (IHl _ _ _ _ _ L (node_offs r ++ R) El Hnd Hlt) as (N1 & B1). rewrite app_assoc in N1, B1.
  destruct (IHr _ _ _ _ _ (L ++ node_offs l') R Er N1 B1) as (N2 & B2).
  rewrite <- app_assoc, (app_assoc (node_offs l')) in N2, B2. pose proof node_len_eq. split.
  - apply (NoDup_Add (Add_app s2 L _)). split; [exact N2|].
    intros Hin. apply (proj1 (Forall_forall _ _) B2) in Hin. lia.
  - apply Forall_app. apply Forall_app in B2. destruct B2 as (B2 & B3).
    split; [|constructor; [lia|]]; eapply Forall_impl; eauto; cbv beta; intros; lia.
Qed.

Lemma write_tree_nodup f size t f' s' t' :
  rep f t -> below t size -> write_tree f size t = (f', s', t') ->
  NoDup (node_offs t) -> NoDup (node_offs t').
Proof.
  intros Hrep Hb H Hnd. unfold write_tree in H.
  destruct (write_items f size t) as [[f1 s1] t1] eqn:E1.
  destruct (write_items_shape _ _ _ _ _ _ E1) as (Hm & _ & Eo & _).
  assert (Hlt : Forall (fun o => o < s1) (node_offs t)).
  { apply Forall_forall. intros o Ho. pose proof (offs_range f t size Hrep Hb o Ho). lia. }
  rewrite <- Eo, <- (app_nil_r (node_offs t1)) in Hnd, Hlt. rewrite <- (app_nil_r (node_offs t')).
  exact (proj1 (write_nodes_offs _ _ _ _ _ _ [] [] H Hnd Hlt)).
Qed.

Definition tmap (cs : colls) : list (bytes * tree) :=
  map (fun nc => (fst nc, c_tree (snd nc))) cs.

Definition coll_ok (f : file) (size : Z) (nc : bytes * coll) : Prop :=
  name_ok (fst nc) /\ rep f (c_tree (snd nc)) /\ below (c_tree (snd nc)) size /\
  tree_ok (c_tree (snd nc)).

Definition coll_post (f' : file) (s' : Z) (nc nc' : bytes * coll) : Prop :=
  fst nc' = fst nc /\ c_cmp (snd nc') = c_cmp (snd nc) /\
  persisted (c_tree (snd nc')) /\ rep f' (c_tree (snd nc')) /\ below (c_tree (snd nc')) s' /\
  erase (c_tree (snd nc')) = erase (c_tree (snd nc)).

Lemma coll_ok_stable f f' size size' nc :
  coll_ok f size nc -> agree f f' size -> size <= size' -> coll_ok f' size' nc.
Proof.
  intros (H1 & H2 & H3 & H4) Hag Hle.
  exact (conj H1 (conj (rep_stable f f' _ size H2 H3 Hag) (conj (below_mono _ size size' H3 Hle) H4))).
Qed.

Lemma coll_post_ext f s f' s' nc nc' : coll_post f s nc nc' -> ext f s f' s' -> coll_post f' s' nc nc'.
Proof.
  intros (H1 & H2 & H3 & H4 & H5 & H6) X. destruct (stored_ext _ _ _ _ _ (conj H4 H5) X) as (R & B).
  exact (conj H1 (conj H2 (conj H3 (conj R (conj B H6))))).
Qed.

Lemma write_tree_mono f size t f' s' t' : write_tree f size t = (f', s', t') -> size <= s'.
Proof.
  unfold write_tree. destruct (write_items f size t) as [[f1 s1] t1] eqn:E1. intros E2.
  apply write_items_mono in E1. apply write_nodes_mono in E2. lia.
Qed.

Lemma write_colls_mono : forall cs f size f' s' cs',
  write_colls f size cs = (f', s', cs') -> size <= s'.
Proof.
  induction cs as [|[n c] cs IH]; intros f size f' s' cs' H; cbn [write_colls] in H.
  - inversion H. lia.
  - destruct (write_tree f size (c_tree c)) as [[f1 s1] t'] eqn:E1.
    destruct (write_colls f1 s1 cs) as [[f2 s2] cs2] eqn:E2.
    inversion H; subst. apply write_tree_mono in E1. apply IH in E2. lia.
Qed.

Lemma write_colls_post : forall cs f size f' s' cs',
  Forall (coll_ok f size) cs -> 0 <= size <= blen f ->
  write_colls f size cs = (f', s', cs') -> s' < two63 ->
  ext f size f' s' /\
  Forall2 (fun nc nc' => coll_post f' s' nc nc' /\
             (NoDup (node_offs (c_tree (snd nc))) -> NoDup (node_offs (c_tree (snd nc'))))) cs cs'.
Proof.
  induction cs as [|[n c] cs IH]; intros f size f' s' cs' Hok Hsz H H63; cbn [write_colls] in H.
  - injection H as <- <- <-. split; [apply ext_refl; lia|constructor].
  - destruct (write_tree f size (c_tree c)) as [[f1 s1] t'] eqn:E1.
    destruct (write_colls f1 s1 cs) as [[f2 s2] cs2] eqn:E2. injection H as <- <- <-.
    inversion Hok as [|? ? (C1 & C2 & C3 & C4) Hcs]; subst. cbn [fst snd] in *.
    pose proof (write_colls_mono _ _ _ _ _ _ E2) as Hm2.
    destruct (write_tree_post f size _ f1 s1 t' C2 C3 Hsz C4 ltac:(lia) E1)
      as (X1 & (A4 & A5) & A6 & Hper). pose proof X1 as (A1 & A2 & _).
    assert (Hcs' : Forall (coll_ok f1 s1) cs).
    { eapply Forall_impl; [|exact Hcs]. intros nc Hnc. eapply coll_ok_stable; eauto. lia. }
    destruct (IH _ _ _ _ _ Hcs' ltac:(lia) E2 H63) as (X2 & B).
    split; [exact (ext_trans _ _ _ _ _ _ X1 X2)|]. constructor; [|exact B]. split.
    + apply (coll_post_ext f1 s1 f2 s2); [|exact X2].
      unfold coll_post. cbn [fst snd c_cmp c_tree]. repeat split; auto.
    + exact (write_tree_nodup f size (c_tree c) f1 s1 t' C2 C3 E1).
Qed.

Lemma root_map_locs cs : root_map cs = locs_of (tmap cs).
Proof. unfold root_map, locs_of, tmap. rewrite map_map. reflexivity. Qed.

Lemma coll_post_entry_ok f' s' cs cs' :
  Forall (fun nc => name_ok (fst nc)) cs -> Forall2 (coll_post f' s') cs cs' -> s' < two63 ->
  Forall entry_ok (root_map cs').
Proof.
  intros Hn H2 H63. apply Forall_map. revert Hn. apply Forall2_Forall_r with (2 := H2).
  intros nc nc' (P1 & _ & _ & P4 & P5 & _) Hname. cbn [fst snd]. unfold entry_ok. rewrite P1.
  split; [exact Hname|]. destruct (root_loc (c_tree (snd nc'))) as [p|] eqn:E; [|exact I].
  destruct (rep_root _ _ p P4 E) as (Hpl & H0 & _). pose proof (below_root _ _ P5 p E).
  pose proof node_len_eq. rewrite two63_eq in H63. lia.
Qed.

Lemma coll_post_contents f' s' cs cs' : Forall2 (coll_post f' s') cs cs' ->
  contents (tmap cs') = map (fun nc => (fst nc, elems (c_tree (snd nc)))) cs.
Proof.
  unfold contents, tmap. rewrite map_map. apply Forall2_map_eq.
  intros nc nc' (P1 & _ & _ & _ & _ & P6). cbn [fst snd]. now rewrite P1, (erase_eq_elems _ _ P6).
Qed.

Lemma coll_post_loadable (f' : file) s' cs cs' :
  Forall2 (coll_post f' s') cs cs' ->
  Forall (fun nc => (size (c_tree (snd nc)) <= S (length f'))%nat) cs ->
  Forall (fun nt => rep f' (snd nt) /\ persisted (snd nt) /\ below (snd nt) s' /\
                    (size (snd nt) <= S (length f'))%nat) (tmap cs').
Proof.
  intros H2 Hs. apply Forall_map. revert Hs. apply Forall2_Forall_r with (2 := H2).
  intros nc nc' (_ & _ & P3 & P4 & P5 & P6) Hs. cbn [snd]. rewrite (erase_eq_congr size erase_size _ _ P6). auto.
Qed.

Lemma flush_bytes_inv f size cs f' size' cs' : flush_bytes f size cs = (f', size', cs') ->
  exists f1 s1, write_colls f size cs = (f1, s1, cs') /\
    f' = write_at f1 s1 (enc_root (root_map cs') s1) /\ size' = s1 + blen (enc_root (root_map cs') s1).
Proof.
  unfold flush_bytes. destruct (write_colls f size cs) as [[f1 s1] cs1]. intros [= <- <- <-]. eauto.
Qed.

(* What Flush does to the bytes: an append step that leaves every collection persisted and
   represented below the new size, ending in a root record (longer than roots_len) that root_at
   decodes, provided its length fits the 32-bit length field. *)
Lemma flush_spec f size cs f' size' cs' :
  Forall (coll_ok f size) cs -> 0 <= size <= blen f ->
  flush_bytes f size cs = (f', size', cs') -> size' < two63 ->
  ext f size f' size' /\ size + roots_len < size' /\ Forall2 (coll_post f' size') cs cs' /\
  (roots_len + blen (enc_json (root_map cs')) < two32 -> root_at f' size' = Some (root_map cs')).
Proof.
  intros Hok Hsz H H63. apply flush_bytes_inv in H. destruct H as (f1 & s1 & E & -> & ->).
  set (r := enc_root (root_map cs') s1) in *.
  pose proof (blen_enc_root (root_map cs') s1) as Hbr. fold r in Hbr.
  pose proof (blen_enc_json_pos (root_map cs')) as Hj. pose proof roots_len_eq as Hrl.
  destruct (write_colls_post _ _ _ _ _ _ Hok Hsz E ltac:(lia)) as (X1 & B). pose proof X1 as (_ & A2 & _).
  pose proof (ext_write_at f1 s1 r ltac:(lia)) as X2.
  assert (Hpost : Forall2 (coll_post (write_at f1 s1 r) (s1 + blen r)) cs cs').
  { eapply Forall2_imp; [|exact B]. intros nc nc' (Hp & _).
    exact (coll_post_ext _ _ _ _ _ _ Hp X2). }
  split; [exact (ext_trans _ _ _ _ _ _ X1 X2)|]. split; [lia|]. split; [exact Hpost|].
  intros H32. apply root_at_enc; [|lia|lia|fold r; lia].
  apply (coll_post_entry_ok _ _ cs _ (Forall_impl _ (fun nc Hnc => proj1 Hnc) Hok) Hpost H63).
Qed.

(* decode_store loads each tree with a budget of S (length f') node records, and [rep] does not
   exclude files in which node records are shared (a DAG), whose unfolding may have more nodes
   than the file has bytes (Counterex.flush_cex_budget): hence the last hypothesis.
   size_le_offsets / flush_decodes_nodup give sufficient conditions. *)
Theorem flush_decodes f size cs f' size' cs' :
  Forall (coll_ok f size) cs -> 0 <= size <= blen f ->
  flush_bytes f size cs = (f', size', cs') ->
  size' < two63 -> roots_len + blen (enc_json (root_map cs')) < two32 ->
  blen f' = size' ->
  Forall (fun nc => (Treap.size (c_tree (snd nc)) <= S (length f'))%nat) cs ->
  decode_store f' = OpOk size' (tmap cs') /\
  contents (tmap cs') = map (fun nc => (fst nc, elems (c_tree (snd nc)))) cs /\
  agree f f' size.
Proof.
  intros Hok Hsz H H63 H32 Hbl Hsize.
  destruct (flush_spec _ _ _ _ _ _ Hok Hsz H H63) as ((Hag & _ & _) & Hgt & Hpost & Hroot).
  specialize (Hroot H32). pose proof roots_len_eq as Hrl.
  split; [|split; [eapply coll_post_contents; eauto|exact Hag]].
  apply (decode_store_found f' size' (root_map cs')).
  - rewrite Hbl. apply scan_complete; auto; intros; lia.
  - rewrite root_map_locs. apply load_all_rep. now apply (coll_post_loadable f' size' cs cs').
Qed.

Lemma flush_no_junk f size cs f' size' cs' :
  Forall (coll_ok f size) cs -> 0 <= size <= blen f ->
  flush_bytes f size cs = (f', size', cs') -> size' < two63 ->
  blen f = size -> blen f' = size'.
Proof. intros Hok Hsz H H63. now destruct (flush_spec _ _ _ _ _ _ Hok Hsz H H63) as ((_ & _ & X) & _). Qed.

Theorem revert_total f size :
  scan f (if roots_len <? size then size - 1 else size) <> ScanOutOfFuel.
Proof. apply scan_fuel. Qed.

Theorem revert_previous f e_k m_k e_prev m_prev :
  root_at f e_k = Some m_k -> root_at f e_prev = Some m_prev -> e_prev < e_k ->
  (forall e', e_prev < e' < e_k -> root_at f e' = None) ->
  revert_bytes f e_k = (firstn (Z.to_nat e_prev) f, e_prev, m_prev).
Proof.
  intros Hk Hp Hlt Hn. unfold revert_bytes.
  apply root_at_Some_gt in Hk.
  rewrite Zltb_t by lia.
  rewrite (scan_complete f (e_k - 1) e_prev m_prev); auto; [lia|].
  intros e' He'. apply Hn. lia.
Qed.

Theorem revert_to_empty f e_k :
  (forall e', e' < e_k -> root_at f e' = None) -> roots_len < e_k ->
  revert_bytes f e_k = ([], 0, []).
Proof.
  intros Hn Hlt. unfold revert_bytes. rewrite Zltb_t by assumption.
  rewrite (proj2 (scan_none_iff f (e_k - 1))); [reflexivity|]. intros e' He'. apply Hn. lia.
Qed.

Theorem revert_root_at f e : root_at (firstn (Z.to_nat e) f) e = root_at f e.
Proof. apply root_at_agree. apply agree_firstn. Qed.

Lemma root_at_le_blen f e m : root_at f e = Some m -> e <= blen f.
Proof.
  intros H. pose proof (root_at_Some_gt _ _ _ H) as Hgt. unfold root_at in H.
  rewrite Zleb_f in H by lia.
  destruct (read_at f (e - roots_end_len) roots_end_len) as [t|] eqn:Er; [|discriminate].
  apply read_at_inv in Er. change roots_end_len with 24 in Er. destruct Er as (_ & [Er|Er]); lia.
Qed.

Theorem revert_reopens f e m :
  root_at f e = Some m ->
  let f' := firstn (Z.to_nat e) f in blen f' = e /\ scan f' (blen f') = ScanFound e m.
Proof.
  intros H f'. pose proof (root_at_le_blen _ _ _ H) as Hle.
  pose proof (root_at_Some_gt _ _ _ H) as Hgt. change roots_len with 44 in Hgt.
  assert (Hb : blen f' = e).
  { subst f'. unfold blen in *. rewrite firstn_length. lia. }
  split; [exact Hb|]. rewrite Hb. apply scan_complete; [|lia|intros; lia].
  subst f'. now rewrite revert_root_at.
Qed.

Lemma aggs_aggs_b t : aggs t -> aggs_b t = true.
Proof.
  induction t as [|nl l IHl il it nn nb r IHr]; [reflexivity|].
  intros (Hl & Hr & Hnn & Hnb). cbn [aggs_b]. rewrite IHl, IHr by assumption.
  destruct (aggs_num l Hl) as (L1 & L2). destruct (aggs_num r Hr) as (R1 & R2).
  cbn [size elems] in *. rewrite sum_bytes_app in Hnb.
  apply andb_true_intro. split; apply Z.eqb_eq; lia.
Qed.

Lemma rep_locs_b f t : rep f t -> persisted t -> locs_b t = true.
Proof.
  induction t as [|nl l IHl il it nn nb r IHr]; [reflexivity|]. intros Hrep Hper.
  destruct (rep_node_inv _ _ _ _ _ _ _ _ Hrep Hper)
    as (p & q & -> & -> & Hpl & _ & Hql & _ & Rl & Rr & Pl & Pr).
  cbn [locs_b]. rewrite IHl, IHr by assumption. rewrite Hpl, Hql, !Z.eqb_refl. reflexivity.
Qed.

Lemma sorted_sorted_b cmp l : sorted cmp l -> sorted_b cmp l = true.
Proof.
  induction l as [|x xs IH]; [reflexivity|]. intros (Hgt & Hs).
  cbn [sorted_b]. destruct xs as [|y ys]; [reflexivity|].
  inversion Hgt as [|? ? Hxy _]; subst. unfold klt in Hxy. rewrite Hxy. now apply IH.
Qed.

Lemma names_b_ext (a b : list (bytes * tree)) : map fst a = map fst b -> names_b a = names_b b.
Proof.
  revert b. induction a as [|[n t] a IH]; intros b H; destruct b as [|[n' t'] b]; try discriminate; [reflexivity|].
  cbn [map fst] in H. injection H as <- Hab. specialize (IH b Hab).
  cbn [names_b]. destruct a as [|[n1 t1] a]; destruct b as [|[n2 t2] b]; try discriminate; [reflexivity|].
  cbn [map fst] in Hab. injection Hab as <- _. now rewrite IH.
Qed.

Lemma coll_post_names f' s' cs cs' : Forall2 (coll_post f' s') cs cs' ->
  map fst (tmap cs') = map fst (tmap cs).
Proof. unfold tmap. rewrite !map_map. apply Forall2_map_eq. intros nc nc' Hp. apply Hp. Qed.

Definition coll_conf (cmpid : bytes -> nat) (nc : bytes * coll) : Prop :=
  cmpid (fst nc) = c_cmp (snd nc) /\ cmp_laws (cmp_of (c_cmp (snd nc))) /\
  bst (cmp_of (c_cmp (snd nc))) (c_tree (snd nc)) /\ aggs (c_tree (snd nc)).

Lemma coll_post_conf cmpid f' s' cs cs' :
  Forall2 (coll_post f' s') cs cs' -> Forall (coll_conf cmpid) cs ->
  forallb (fun nt => aggs_b (snd nt) && locs_b (snd nt) &&
                     sorted_b (cmp_of (cmpid (fst nt))) (elems (snd nt))) (tmap cs') = true.
Proof.
  intros H2 Hc. apply forallb_forall, Forall_forall, Forall_map. revert Hc.
  apply Forall2_Forall_r with (2 := H2).
  intros nc nc' (P1 & _ & P3 & P4 & _ & P6) (C1 & C2 & C3 & C4). cbn [fst snd].
  rewrite (aggs_aggs_b _ (erase_eq_aggs _ _ P6 C4)), (rep_locs_b f' _ P4 P3).
  rewrite P1, C1, (erase_eq_elems _ _ P6). apply sorted_sorted_b. now apply bst_sorted.
Qed.

Theorem flush_conforms cmpid f size cs f' size' cs' :
  Forall (coll_ok f size) cs -> 0 <= size <= blen f ->
  flush_bytes f size cs = (f', size', cs') ->
  size' < two63 -> roots_len + blen (enc_json (root_map cs')) < two32 ->
  blen f' = size' ->
  Forall (fun nc => (Treap.size (c_tree (snd nc)) <= S (length f'))%nat) cs ->
  names_b (tmap cs) = true -> Forall (coll_conf cmpid) cs ->
  conforms_v4 cmpid f' = true.
Proof.
  intros Hok Hsz H H63 H32 Hbl Hsize Hnames Hconf.
  destruct (flush_decodes _ _ _ _ _ _ Hok Hsz H H63 H32 Hbl Hsize) as (Hd & _ & _).
  destruct (flush_spec _ _ _ _ _ _ Hok Hsz H H63) as (_ & _ & Hpost & _).
  unfold conforms_v4. rewrite Hd, (names_b_ext _ (tmap cs)), Hnames by (eapply coll_post_names; eauto).
  eapply coll_post_conf; eauto.
Qed.

Lemma coll_post_size_le f1 s1 cs cs1 (L : nat) :
  Forall2 (coll_post f1 s1) cs cs1 ->
  Forall (fun nc => NoDup (node_offs (c_tree (snd nc)))) cs1 -> s1 <= Z.of_nat L ->
  Forall (fun nc => (Treap.size (c_tree (snd nc)) <= S L)%nat) cs.
Proof.
  intros H2 Hnd HL. revert Hnd. apply Forall2_Forall_l with (2 := H2).
  intros nc nc' (_ & _ & P3 & P4 & P5 & P6) Hnd.
  pose proof (size_le_offsets f1 _ s1 P4 P3 P5 Hnd). rewrite <- (erase_eq_congr size erase_size _ _ P6). lia.
Qed.

Lemma coll_post_ok f size f' s' cs cs' :
  Forall (coll_ok f size) cs -> Forall2 (coll_post f' s') cs cs' -> Forall (coll_ok f' s') cs'.
Proof.
  intros Hok H2. revert Hok. apply Forall2_Forall_r with (2 := H2).
  intros nc nc' (P1 & _ & _ & P4 & P5 & P6) (C1 & _ & _ & C4). unfold coll_ok. rewrite P1.
  exact (conj C1 (conj P4 (conj P5 (erase_eq_tree_ok _ _ P6 C4)))).
Qed.

Lemma flush_nodup_facts f size cs f' size' cs' :
  Forall (coll_ok f size) cs -> 0 <= size <= blen f ->
  flush_bytes f size cs = (f', size', cs') -> size' < two63 ->
  Forall (fun nc => NoDup (node_offs (c_tree (snd nc)))) cs ->
  Forall (fun nc => (Treap.size (c_tree (snd nc)) <= S (length f'))%nat) cs /\
  Forall (coll_ok f' size') cs' /\
  Forall (fun nc => NoDup (node_offs (c_tree (snd nc)))) cs'.
Proof.
  intros Hok Hsz H H63 Hnd.
  destruct (flush_spec _ _ _ _ _ _ Hok Hsz H H63) as ((_ & Hle & _) & _ & Hpost & _).
  destruct (flush_bytes_inv _ _ _ _ _ _ H) as (f1 & s1 & E & _ & Es).
  pose proof (blen_nonneg (enc_root (root_map cs') s1)) as Hr.
  assert (Hnd' : Forall (fun nc => NoDup (node_offs (c_tree (snd nc)))) cs').
  { destruct (write_colls_post _ _ _ _ _ _ Hok Hsz E ltac:(lia)) as (_ & B).
    revert Hnd. apply Forall2_Forall_r with (2 := B). intros nc nc' Hp. apply Hp. }
  split; [|split; [|exact Hnd']].
  - apply (coll_post_size_le f' size' cs cs'); auto. unfold blen in Hle. lia.
  - exact (coll_post_ok f size f' size' cs cs' Hok Hpost).
Qed.

(* flush_decodes with the no-sharing invariant instead of the explicit node budget *)
Theorem flush_decodes_nodup f size cs f' size' cs' :
  Forall (coll_ok f size) cs -> 0 <= size <= blen f ->
  flush_bytes f size cs = (f', size', cs') ->
  size' < two63 -> roots_len + blen (enc_json (root_map cs')) < two32 ->
  blen f' = size' ->
  Forall (fun nc => NoDup (node_offs (c_tree (snd nc)))) cs ->
  decode_store f' = OpOk size' (tmap cs') /\
  contents (tmap cs') = map (fun nc => (fst nc, elems (c_tree (snd nc)))) cs /\
  agree f f' size /\
  (* the invariants hold again for the next Flush *)
  Forall (coll_ok f' size') cs' /\ Forall (fun nc => NoDup (node_offs (c_tree (snd nc)))) cs'.
Proof.
  intros Hok Hsz H H63 H32 Hbl Hnd.
  destruct (flush_nodup_facts _ _ _ _ _ _ Hok Hsz H H63 Hnd) as (G1 & G2 & G3).
  destruct (flush_decodes _ _ _ _ _ _ Hok Hsz H H63 H32 Hbl G1) as (D1 & D2 & D3).
  repeat split; assumption.
Qed.

Theorem flush_conforms_nodup cmpid f size cs f' size' cs' :
  Forall (coll_ok f size) cs -> 0 <= size <= blen f ->
  flush_bytes f size cs = (f', size', cs') ->
  size' < two63 -> roots_len + blen (enc_json (root_map cs')) < two32 ->
  blen f' = size' ->
  Forall (fun nc => NoDup (node_offs (c_tree (snd nc)))) cs ->
  names_b (tmap cs) = true -> Forall (coll_conf cmpid) cs ->
  conforms_v4 cmpid f' = true.
Proof.
  intros Hok Hsz H H63 H32 Hbl Hnd Hnames Hconf.
  destruct (flush_nodup_facts _ _ _ _ _ _ Hok Hsz H H63 Hnd) as (G1 & _ & _).
  eapply flush_conforms; eauto.
Qed.

(* an unpersisted tree has no offsets at all, so it satisfies the no-sharing invariant *)
Lemma node_offs_erase t : node_offs (erase t) = [].
Proof. induction t as [|nl l IHl il it nn nb r IHr]; cbn [erase node_offs oloc_off app]; [reflexivity|]. now rewrite IHl, IHr. Qed.
