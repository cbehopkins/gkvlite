(* The iterator of Iter.v never panics, always terminates, delivers [expected] and
   ends in one state, [final_state].  All of it rests on one invariant, [Inv]: four
   of the nine components of a state are functions of the other five, and the phases
   of consumer and producer tell how far along [expected] the run is. *)

From Coq Require Import List Bool Arith Lia.
Import ListNotations.
From GK Require Import Iter.

Lemma in_app5 : forall {A} (x : A) a b c d e,
  In x (a ++ b ++ c ++ d ++ e) <-> In x a \/ In x b \/ In x c \/ In x d \/ In x e.
Proof. intros. rewrite !in_app_iff. reflexivity. Qed.

(* [succs] is the concatenation of five lists: the consumer's next command, the
   rendezvous on either channel, the producer seeing [next] closed, close(items),
   and the consumer seeing [items] closed.  Each rule of [step] belongs to one. *)
Lemma step_succs : forall n s s', step n s s' -> In s' (succs n s).
Proof.
  intros n s s' H. destruct H; apply in_app5.
  1-4: left; left; reflexivity.
  1-3, 7: right; left; left; reflexivity.
  1-3: right; right; left; left; reflexivity.
  - do 3 right; left; left; reflexivity.
  - do 4 right; left; reflexivity.
Qed.

Theorem step_iff_succs : forall n s s', step n s s' <-> In s' (succs n s).
Proof.
  intros n s s'. split; [apply step_succs |].
  destruct s as [cs cl r cp pp pin nc ic pk]. intros H. apply in_app5 in H.
  destruct H as [H | [H | [H | [H | H]]]];
    [ destruct cp, cs as [| [|] cs'], cl | destruct cp, pp | destruct nc, pp
    | destruct pp | destruct cp, ic ];
    simpl in H; try contradiction; destruct H as [<- | []]; constructor.
Qed.

Lemma finalb_final : forall s, finalb s = true <-> final s.
Proof.
  intros [cs cl r cp pp pin nc ic pk]; unfold finalb, final; simpl. split.
  - destruct cs, cp; try discriminate. destruct pp, cl; try discriminate; intros _; repeat split; eauto.
  - intros (-> & -> & [-> | (-> & [-> | [k ->]])]); reflexivity.
Qed.

Lemma final_dec : forall s, {final s} + {~ final s}.
Proof.
  intros s. destruct (finalb s) eqn:E; [left | right]; rewrite <- finalb_final; congruence.
Qed.

Lemma reachable_steps : forall n cs0 s s',
  reachable n cs0 s -> steps n s s' -> reachable n cs0 s'.
Proof.
  intros n cs0 s s' Hr Hs. induction Hs; auto.
  apply IHHs. eapply R_step; eauto.
Qed.

Lemma steps_trans : forall n a b c, steps n a b -> steps n b c -> steps n a c.
Proof. intros n a b c H. induction H; intros; auto. econstructor; eauto. Qed.

Lemma reachable_iff_steps : forall n cs0 s,
  reachable n cs0 s <-> steps n (init cs0) s.
Proof.
  intros; split.
  - induction 1. constructor. eapply steps_trans; eauto. econstructor; eauto. constructor.
  - intros. eapply reachable_steps; eauto. constructor.
Qed.

(* Once closed, every Next returns None, whatever n and k are. *)
Definition closedout (cs : list cmd) : list (option nat) := expect 0 0 true cs.

Lemma expect_true : forall n k cs, expect n k true cs = closedout cs.
Proof.
  unfold closedout. intros n k cs. induction cs as [| [|] cs IH]; simpl; auto.
  f_equal; auto.
Qed.

Definition pinned_of (p : pphase) : bool :=
  match p with PSend _ | PWaitNext _ => true | _ => false end.

Definition ic_of (p : pphase) : bool :=
  match p with PDrain | PDone => true | _ => false end.

(* [Spec n c0 R l f]: the complete expected result list is the results so far
   followed by [l]; the open/closed outcome of the whole run is [f]. *)
Definition Spec (n : nat) (c0 : list cmd) (R l : list (option nat)) (f : option nat) : Prop :=
  expected n c0 = R ++ l /\ openfin n 0 c0 = f.

(* What remains to be delivered, by the phases of consumer and producer, with
   results [R] so far and commands [C] still to be issued. *)
Definition Phase (n : nat) (c0 : list cmd) (R : list (option nat)) (C : list cmd)
    (cp : cphase) (cl : bool) (pp : pphase) : Prop :=
  match cp, cl, pp with
  (* consumer idle, iterator open: producer waits for a Next *)
  | CIdle, false, PWaitFirst  => Spec n c0 R (expect n 0 false C) (openfin n 0 C)
  | CIdle, false, PWaitNext k => k < n /\ Spec n c0 R (expect n (S k) false C) (openfin n (S k) C)
  (* consumer idle, iterator closed: producer is on its way out *)
  | CIdle, true, (PWaitFirst | PWaitNext _ | PClosing | PDrain | PDone) => Spec n c0 R (closedout C) None
  (* consumer inside Next, blocked sending on next *)
  | CSending, false, PWaitFirst  =>
      Spec n c0 R (expect n 0 false (CNext :: C)) (openfin n 0 (CNext :: C))
  | CSending, false, PWaitNext k =>
      k < n /\ Spec n c0 R (expect n (S k) false (CNext :: C)) (openfin n (S k) (CNext :: C))
  (* consumer inside Next, blocked receiving on items *)
  | CReceiving, false, PSend k  =>
      k < n /\ Spec n c0 R (expect n k false (CNext :: C)) (openfin n k (CNext :: C))
  | CReceiving, false, (PClosing | PDrain) => Spec n c0 R (None :: closedout C) None
  (* everything else is unreachable *)
  | _, _, _ => False
  end.

Inductive Inv (n : nat) (c0 : list cmd) : state -> Prop :=
| Inv_intro cs cl r cp pp : Phase n c0 r cs cp cl pp ->
    Inv n c0 (mkState cs cl r cp pp (pinned_of pp) cl (ic_of pp) false).

Lemma Inv_mk : forall n c0 cs cl r cp pp pin nc ic pk,
  Inv n c0 (mkState cs cl r cp pp pin nc ic pk) ->
  pk = false /\ nc = cl /\ pin = pinned_of pp /\ ic = ic_of pp /\ Phase n c0 r cs cp cl pp.
Proof. inversion 1; subst; auto 6. Qed.

Lemma Spec_snoc : forall n c0 R x l f,
  Spec n c0 R (x :: l) f -> Spec n c0 (R ++ [x]) l f.
Proof. unfold Spec. intros. rewrite <- app_assoc. simpl. auto. Qed.

Lemma Inv_step : forall n c0 s s', Inv n c0 s -> step n s s' -> Inv n c0 s'.
Proof.
  intros n c0 s s' HI Hs.
  destruct Hs; apply Inv_mk in HI; destruct HI as (-> & ? & -> & ? & HS); subst;
    unfold Phase in HS; cbn [pinned_of ic_of].
  (* one case per rule of [step], in its order *)
  - destruct pp; try contradiction; constructor; apply Spec_snoc; exact HS.
  - destruct pp; try contradiction; constructor; exact HS.
  - destruct pp; try contradiction; constructor; exact HS.
  - (* Close on an open iterator: what was expected of the open iterator after
       Close is what is expected of a closed one *)
    destruct pp; try contradiction; constructor;
      unfold Phase, Spec in *; cbn [expect openfin] in HS; rewrite expect_true in HS; tauto.
  - destruct cl; try contradiction.
    destruct n as [| n]; cbn [Nat.eqb]; constructor; [exact HS | split; [lia | exact HS]].
  - destruct cl; try contradiction. destruct HS as (Hk & HS).
    destruct (S k <? n) eqn:E; constructor.
    + split; [apply Nat.ltb_lt; auto | exact HS].
    + unfold Phase, Spec in *. cbn [expect openfin] in HS. rewrite E, expect_true in HS. exact HS.
  - (* S_rv_drain is never enabled *)
    destruct cl; contradiction.
  - destruct cp; try contradiction; constructor; exact HS.
  - destruct cp; try contradiction; constructor; exact HS.
  - destruct cp; try contradiction; constructor; exact HS.
  - destruct cl; try contradiction. destruct HS as (Hk & HS).
    constructor. split; auto.
    apply Spec_snoc. unfold Spec in *. cbn [expect openfin] in HS.
    rewrite (proj2 (Nat.ltb_lt _ _) Hk) in HS. exact HS.
  - destruct cp, cl; try contradiction; constructor; exact HS.
  - destruct cl; try contradiction.
    destruct pp; try contradiction; try discriminate; constructor.
    apply Spec_snoc; exact HS.
Qed.

Theorem Inv_reachable : forall n c0 s, reachable n c0 s -> Inv n c0 s.
Proof.
  intros n c0 s H. induction H; [| eapply Inv_step; eauto].
  apply (Inv_intro n c0 c0 false [] CIdle PWaitFirst). split; reflexivity.
Qed.

Theorem T1_no_panic : forall n cmds0 s,
  reachable n cmds0 s -> panicked s = false.
Proof. intros n c0 s H. destruct (Inv_reachable _ _ _ H). reflexivity. Qed.

(* The suspicious transition "CSending meets PDrain" (the drain loop swallowing a
   Next request) is never enabled in a reachable state. *)
Theorem drain_never_swallows : forall n cmds0 s,
  reachable n cmds0 s -> ~ (cph s = CSending /\ pph s = PDrain).
Proof.
  intros n c0 s H [Hc Hp]. destruct (Inv_reachable _ _ _ H) as [cs cl r cp pp HS].
  cbn in Hc, Hp. subst. destruct cl; exact HS.
Qed.

Theorem closed_iff_next_closed : forall n cmds0 s,
  reachable n cmds0 s -> next_closed s = closed s.
Proof. intros n c0 s H. destruct (Inv_reachable _ _ _ H). reflexivity. Qed.

Theorem T6_unique_final : forall n cmds0 s,
  reachable n cmds0 s -> final s -> s = final_state n cmds0.
Proof.
  intros n c0 s H Hf. destruct (Inv_reachable _ _ _ H) as [cs cl r cp pp HS].
  destruct Hf as (Hc & Hp & Hf). cbn in Hc, Hp, Hf. subst. unfold final_state.
  (* PDone (then closed), or open at PWaitFirst or PWaitNext k: in each [Phase] says
     that nothing remains to be delivered and what [openfin n 0 c0] is *)
  destruct Hf as [-> | (-> & [-> | [k ->]])];
    [destruct cl; [| contradiction] | | destruct HS as (_ & HS)];
    destruct HS as (HR & ->); rewrite HR; cbn [expect closedout];
    rewrite app_nil_r; reflexivity.
Qed.

Corollary T6_confluence : forall n cmds0 s1 s2,
  reachable n cmds0 s1 -> final s1 -> reachable n cmds0 s2 -> final s2 -> s1 = s2.
Proof.
  intros. rewrite (T6_unique_final n cmds0 s1), (T6_unique_final n cmds0 s2); auto.
Qed.

Theorem T2_progress : forall n cmds0 s,
  reachable n cmds0 s -> ~ final s -> exists s', step n s s'.
Proof.
  intros n c0 s H Hnf. destruct (Inv_reachable _ _ _ H) as [cs cl r cp pp HS].
  rewrite <- finalb_final in Hnf. unfold finalb in Hnf. cbn in Hnf.
  (* in every combination of phases the invariant allows, the state is final or
     the first rule of [step] that matches is enabled; the next command matters
     to an idle consumer only *)
  destruct cp; [destruct cs as [| [|] cs] | |]; destruct cl, pp; try contradiction;
    try (destruct Hnf; reflexivity); eexists; constructor.
Qed.

Theorem final_terminal : forall n cmds0 s,
  reachable n cmds0 s -> final s -> forall s', ~ step n s s'.
Proof.
  intros n c0 s H Hf s' Hs. apply step_succs in Hs.
  rewrite (T6_unique_final n c0 s H Hf) in Hs. unfold final_state in Hs.
  destruct (openfin n 0 c0) as [[|] |]; exact Hs.
Qed.

Definition cweight (c : cphase) : nat :=
  match c with CIdle => 0 | CReceiving => 1 | CSending => 2 end.

Definition pweight (n : nat) (p : pphase) : nat :=
  match p with
  | PWaitFirst  => 2 * n + 5
  | PSend k     => 2 * (n - k) + 4
  | PWaitNext k => 2 * (n - k) + 3
  | PClosing    => 2
  | PDrain      => 1
  | PDone       => 0
  end.

Definition measure (n : nat) (s : state) : nat :=
  3 * length (cmds s) + cweight (cph s) + pweight n (pph s).

(* holds of every state, reachable or not *)
Theorem T3_measure_decreases : forall n s s',
  step n s s' -> measure n s' < measure n s.
Proof.
  (* only S_rv_next, then S_rv_first, branch on [n] *)
  intros n s s' H. destruct H; unfold measure.
  6: destruct (Nat.ltb_spec (S k) n).
  5: destruct (n =? 0).
  all: cbn [cmds cph pph cweight pweight length]; lia.
Qed.

Corollary T3_steps_bounded : forall n s s',
  steps n s s' -> measure n s' <= measure n s.
Proof.
  intros n s s' H. induction H; auto.
  apply T3_measure_decreases in H. lia.
Qed.

Theorem T3_no_infinite_path : forall n (f : nat -> state),
  ~ (forall i, step n (f i) (f (S i))).
Proof.
  intros n f H.
  assert (B : forall i, measure n (f i) + i <= measure n (f 0)).
  { induction i; [lia |]. specialize (H i). apply T3_measure_decreases in H. lia. }
  specialize (B (S (measure n (f 0)))). lia.
Qed.

Theorem T3_well_founded : forall n, well_founded (fun s' s => step n s s').
Proof.
  intros n.
  apply (well_founded_lt_compat state (measure n)).
  intros; apply T3_measure_decreases; auto.
Qed.

Theorem T3_stuck_is_final : forall n cmds0 s,
  reachable n cmds0 s -> (forall s', ~ step n s s') -> final s.
Proof.
  intros n c0 s Hr Hstuck. destruct (final_dec s) as [| Hnf]; [assumption |].
  destruct (T2_progress n c0 s Hr Hnf) as [s' Hs]. destruct (Hstuck s' Hs).
Qed.

(* Every execution can be (and, by T3_no_infinite_path, eventually must be)
   extended to a final state; a maximal execution ends in a final state. *)
Theorem T3_reaches_final : forall n cmds0 s,
  reachable n cmds0 s -> exists s', steps n s s' /\ final s'.
Proof.
  intros n c0 s. induction s as [s IH] using (well_founded_induction (T3_well_founded n)).
  intros Hr. destruct (final_dec s) as [Hf | Hnf].
  - exists s. split; [constructor | assumption].
  - destruct (T2_progress n c0 s Hr Hnf) as [s' Hs].
    destruct (IH s' Hs) as (s'' & Hss & Hf). { eapply R_step; eauto. }
    exists s''. split; auto. econstructor; eauto.
Qed.

Theorem T4_results : forall n cmds0 s,
  reachable n cmds0 s -> final s -> results s = expected n cmds0.
Proof.
  intros n c0 s H Hf. rewrite (T6_unique_final n c0 s H Hf). unfold final_state.
  destruct (openfin n 0 c0) as [[|] |]; reflexivity.
Qed.

Theorem T4_results_prefix : forall n cmds0 s,
  reachable n cmds0 s -> exists l, expected n cmds0 = results s ++ l.
Proof.
  intros n c0 s H. destruct (Inv_reachable _ _ _ H) as [cs cl r cp pp HS].
  unfold Phase, Spec in HS. cbn [results].
  destruct cp, cl, pp; try contradiction; decompose [and] HS; eauto.
Qed.

Theorem T5_producer_exits : forall n cmds0 s,
  reachable n cmds0 s -> final s -> closed s = true ->
  pph s = PDone /\ pinned s = false.
Proof.
  intros n c0 s H Hf. rewrite (T6_unique_final n c0 s H Hf). unfold final_state.
  destruct (openfin n 0 c0) as [[|] |]; [discriminate.. | auto].
Qed.

Theorem T5_pinned_exact : forall n cmds0 s,
  reachable n cmds0 s ->
  pinned s = match pph s with PSend _ | PWaitNext _ => true | _ => false end.
Proof. intros n c0 s H. destruct (Inv_reachable _ _ _ H). reflexivity. Qed.

Theorem T5_unpinned : forall n cmds0 s,
  reachable n cmds0 s ->
  (pph s = PClosing \/ pph s = PDrain \/ pph s = PDone \/ pph s = PWaitFirst) ->
  pinned s = false.
Proof.
  intros n c0 s H Hp. rewrite (T5_pinned_exact n c0 s H).
  destruct Hp as [-> | [-> | [-> | ->]]]; reflexivity.
Qed.

Lemma step_closed : forall n s s', step n s s' -> closed s = true -> closed s' = true.
Proof.
  intros n s s' H. destruct H; auto.
  - destruct (n =? 0); auto.
  - destruct (S k <? n); auto.
Qed.

Theorem T5_closed_leads_to_done : forall n cmds0 s,
  reachable n cmds0 s -> closed s = true ->
  forall s', steps n s s' -> (forall s'', ~ step n s' s'') ->
  pph s' = PDone /\ pinned s' = false /\ closed s' = true.
Proof.
  intros n c0 s Hr Hcl s' Hss Hstuck.
  assert (Hr' : reachable n c0 s') by (eapply reachable_steps; eauto).
  assert (Hcl' : closed s' = true).
  { clear Hr Hr' Hstuck. induction Hss; eauto using step_closed. }
  destruct (T5_producer_exits n c0 s' Hr' (T3_stuck_is_final n c0 s' Hr' Hstuck) Hcl').
  auto.
Qed.

(* Readable characterisation of [openfin]: the run ends with the iterator still open
   iff the client only issued Next calls, and no more than there are items. *)
Lemma openfin_spec : forall n cs k d, k <= n ->
  (openfin n k cs = Some d <->
   ((forall c, In c cs -> c = CNext) /\ k + length cs <= n /\ d = k + length cs)).
Proof.
  intros n cs. induction cs as [| [|] cs IH]; intros k d Hk; cbn [openfin length].
  - split.
    + intros H; inversion H; subst. repeat split; try lia. intros c [].
    + intros (_ & _ & H). subst. f_equal. lia.
  - destruct (k <? n) eqn:E.
    + apply Nat.ltb_lt in E. rewrite IH by lia. split.
      * intros (Hc & Hl & Hd). repeat split; try lia.
        intros c [Hc' | Hc']; auto.
      * intros (Hc & Hl & Hd). repeat split; try lia.
        intros c Hc'. apply Hc. right; auto.
    + apply Nat.ltb_ge in E. split; [discriminate |]. intros (_ & Hl & _). lia.
  - split; [discriminate |]. intros (Hc & _). specialize (Hc CClose (or_introl eq_refl)).
    discriminate.
Qed.

(* Exactly when does a finished run leave the producer blocked with its pin held?
   Iff the client issued between 1 and n Next calls and never Close. *)
Theorem leak_characterisation : forall n cmds0 s,
  reachable n cmds0 s -> final s ->
  (pinned s = true <->
   ((forall c, In c cmds0 -> c = CNext) /\ 1 <= length cmds0 <= n)).
Proof.
  intros n c0 s H Hf. rewrite (T6_unique_final n c0 s H Hf). unfold final_state.
  destruct (openfin n 0 c0) as [[| k] |] eqn:E; cbn [pinned].
  - apply openfin_spec in E; [| lia]. destruct E as (Hc & Hl & Hd). split; [discriminate |].
    intros (_ & Hl'). simpl in Hd. lia.
  - apply openfin_spec in E; [| lia]. destruct E as (Hc & Hl & Hd). simpl in *. split; auto.
    intros _. split; auto. lia.
  - split; [discriminate |]. intros (Hc & Hl).
    assert (E' : openfin n 0 c0 = Some (length c0)).
    { apply openfin_spec; [lia |]. repeat split; auto; lia. }
    congruence.
Qed.

Definition obs (s : state) := (results s, pph s, pinned s, closed s, panicked s).

Example ex1 : obs (run_first 100 3 (init [CNext; CNext; CClose; CNext]))
              = ([Some 0; Some 1; None], PDone, false, true, false).
Proof. reflexivity. Qed.

Example ex1' : obs (run_last 100 3 (init [CNext; CNext; CClose; CNext]))
              = ([Some 0; Some 1; None], PDone, false, true, false).
Proof. reflexivity. Qed.

Example ex2 : obs (run_first 100 0 (init [CNext])) = ([None], PDone, false, true, false).
Proof. reflexivity. Qed.

Example ex3 : obs (run_first 100 2 (init [CClose; CClose])) = ([], PDone, false, true, false).
Proof. reflexivity. Qed.

Example ex4 : obs (run_first 100 1 (init [CNext; CNext; CNext]))
              = ([Some 0; None; None], PDone, false, true, false).
Proof. reflexivity. Qed.

Example ex_expected :
  expected 3 [CNext; CNext; CClose; CNext] = [Some 0; Some 1; None] /\
  expected 0 [CNext] = [None] /\ expected 2 [CClose; CClose] = [] /\
  expected 1 [CNext; CNext; CNext] = [Some 0; None; None].
Proof. auto. Qed.

(* The schedulers really stop in a terminal state (not because of the fuel). *)
Example ex1_terminal :
  succs 3 (run_first 100 3 (init [CNext; CNext; CClose; CNext])) = [] /\
  finalb (run_first 100 3 (init [CNext; CNext; CClose; CNext])) = true.
Proof. auto. Qed.

(* The "abandoned iterator" outcome permitted by the definition of [final]:
   n = 2 and a single Next, never closed.  The producer goroutine stays blocked in
   <-it.next forever and KEEPS ITS PIN.  This is not a violation of T5 (closed = false)
   but it is the one way the model leaks. *)
Example ex_abandoned :
  run_first 100 2 (init [CNext])
  = mkState [] false [Some 0] CIdle (PWaitNext 0) true false false false.
Proof. reflexivity. Qed.

(* Even after ALL n items were delivered by exactly n Next calls the pin is still held:
   exhaustion is only noticed by the (n+1)-th Next. *)
Example ex_all_delivered_still_pinned :
  run_first 100 2 (init [CNext; CNext])
  = mkState [] false [Some 0; Some 1] CIdle (PWaitNext 1) true false false false.
Proof. reflexivity. Qed.

(* Brute force over ALL interleavings, n <= 3, all command lists of length <= 5 (check_all below):
   no reachable state has panicked, each is final or has a successor, and every end state is
   final_state.  The fuel 60 is more than any of these runs takes (every step lowers `measure`). *)
Definition state_eqb (a b : state) : bool :=
  let oeq (x y : option nat) :=
    match x, y with Some i, Some j => i =? j | None, None => true | _, _ => false end in
  let fix leq (x y : list (option nat)) :=
    match x, y with
    | [], [] => true | u :: x', v :: y' => oeq u v && leq x' y' | _, _ => false end in
  let peq (p q : pphase) :=
    match p, q with
    | PWaitFirst, PWaitFirst | PClosing, PClosing | PDrain, PDrain | PDone, PDone => true
    | PSend i, PSend j | PWaitNext i, PWaitNext j => i =? j
    | _, _ => false end in
  let ceq (p q : cphase) :=
    match p, q with
    | CIdle, CIdle | CSending, CSending | CReceiving, CReceiving => true | _, _ => false end in
  (length (cmds a) =? length (cmds b)) && eqb (closed a) (closed b) &&
  leq (results a) (results b) && ceq (cph a) (cph b) && peq (pph a) (pph b) &&
  eqb (pinned a) (pinned b) && eqb (next_closed a) (next_closed b) &&
  eqb (items_closed a) (items_closed b) && eqb (panicked a) (panicked b).

Definition check_all (maxn len : nat) : bool :=
  forallb (fun n =>
    forallb (fun cs =>
      forallb (fun s => match succs n s with [] => true | _ => false end
                        && finalb s && negb (panicked s)
                        && state_eqb s (final_state n cs))
              (all_ends 60 n (init cs)) &&
      forallb (fun s => negb (panicked s) &&
                        (finalb s || match succs n s with [] => false | _ => true end))
              (all_states 60 n (init cs)))
      (cmdlists_upto len))
    (seq 0 (S maxn)).

Example brute_force : check_all 3 5 = true.
Proof. vm_compute. reflexivity. Qed.
