(* GExprFacts.v — what the Dec*.v proofs need to evaluate the translated source (GExpr.v) under an
   environment whose values are variables, and to find an element in a computed list. *)
From GK Require Import GExpr.
From Coq Require Import ZArith List String.
Import ListNotations.
Open Scope Z_scope.

(* Evaluates geval / gexec / gtrue on a concrete expression, leaving the integer operations on the
   variables of the environment alone.  cbn is not used for this: it is very slow on the string matches
   of geval and upd. *)
Ltac gsimpl :=
  cbv -[Z.gtb Z.ltb Z.leb Z.geb Z.eqb Z.quot Z.rem Z.add Z.sub Z.mul Z.opp Z.of_nat Z.modulo].

(* a condition that evaluates to the truth value of b holds exactly when b does *)
Lemma gtrue_b2z rho e b : geval rho e = Some (b2z b) -> gtrue rho e = Some b.
Proof. unfold gtrue. intros ->. destruct b; reflexivity. Qed.

(* membership in a computed list, by one evaluation of a search for the element *)
Lemma In_find {A} (p : A -> bool) (l : list A) x : find p l = Some x -> In x l.
Proof. intro H. exact (proj1 (find_some _ _ H)). Qed.

Ltac find_in p := apply (In_find p); vm_compute; reflexivity.

Definition is_defer (s : gstmt) : bool := match s with SDefer _ => true | _ => false end.
Definition assigns (x : gexpr -> bool) (s : gstmt) : bool :=
  match s with SAssign [l] _ _ => x l | _ => false end.
