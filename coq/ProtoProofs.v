(* Proofs about the protocol model Proto.v.

   Method: an inductive invariant  Inv s ev k  ("version ev carries k references in hand",
   k = 0 in every reachable state; k > 0 only in the intermediate states of a step, e.g.
   between dropping a pin and the rootDecRef that follows, and inside the release cascade).
   Clauses (record Inv below):
     i_safe    cells of live trees are allocated and not on the free list;
     i_mark    a cell marked M u that lies in the tree of a live version w: u is live, in the
               lineage of w and not older than w (so stale marks of dead versions are in no live tree);
     i_lin     cells of live trees belong to one lineage;
     i_seq/i_max  inside a lineage v_seq identifies a live version; the unsuperseded one is the newest;
     i_chsup/i_super  a chain pointer implies superseded; a live superseded version is chained to
               its live successor (seq+1, same lineage) — except the version ev that is about to
               die: no chain and all its k >= 1 references are the ones in hand;
     i_curU    the tree of a live unsuperseded version is unmarked, or marked by that version
               while a mutation on its lineage pinned to it is in flight;
     i_handle/i_wruniq  open handles point to live versions of their lineage; a writable one to the
               unsuperseded version; at most one open writable handle per lineage;
     i_pin/i_mut  pins and mutations in flight point to live versions; the mutation's handle is
               open, writable and still points to the pinned version;
     i_fresh/i_frdisj  fresh cells of a mutation are U or marked by it, in no live tree, and
               disjoint from the fresh cells of other mutations;
     i_refs    v_refs = #open handles + #pins + #chain references of live versions + #mutations
               (+ k for ev).
   Key argument (lemmas walk / no_older): a live version without holders has no older live
   version in its lineage, because each older one is chained up to it.
   decref_inv: the release cascade preserves the invariant, by induction on the derivation
   (Inv s v (S k) -> decref s v s' -> Inv s' v k); the recursive call runs on the state from
   which the dying version is already removed, with the chain reference now "in hand". *)
From stdpp Require Import gmap.
From GK Require Import Proto.

(* counting the entries of a finite map that satisfy a predicate *)
Section cnt.
  Context {K A : Type} `{Countable K} (P : A -> Prop) `{!forall a, Decision (P a)}.

  Definition cnt (m : gmap K A) : nat := size (filter (fun kv => P kv.2) m).

  Lemma cnt_empty : cnt ∅ = 0.
  Proof. unfold cnt. rewrite map_filter_empty. apply map_size_empty. Qed.

  Lemma cnt_insert_None m k a : m !! k = None ->
    cnt (<[k:=a]> m) = (if decide (P a) then 1 else 0) + cnt m.
  Proof.
    intros Hk. unfold cnt. rewrite map_filter_insert. simpl. case_decide.
    - rewrite map_size_insert_None; [done|]. apply map_filter_lookup_None. by left.
    - by rewrite delete_notin.
  Qed.

  Lemma cnt_delete m k a : m !! k = Some a ->
    cnt m = (if decide (P a) then 1 else 0) + cnt (delete k m).
  Proof. intros Hk. rewrite <-(insert_delete m k a Hk) at 1. apply cnt_insert_None, lookup_delete. Qed.

  Lemma cnt_insert m k a : cnt (<[k:=a]> m) = (if decide (P a) then 1 else 0) + cnt (delete k m).
  Proof. rewrite <-insert_delete_insert. apply cnt_insert_None, lookup_delete. Qed.

  Lemma cnt_pos {m k a} : m !! k = Some a -> P a -> 1 <= cnt m.
  Proof. intros Hk Hp. rewrite (cnt_delete m k a Hk), decide_True by done. lia. Qed.

  (* replacing an entry by one with the same truth value *)
  Lemma cnt_insert_same m k a b : m !! k = Some a -> (P a <-> P b) -> cnt (<[k:=b]> m) = cnt m.
  Proof. intros Hk Hab. rewrite cnt_insert, (cnt_delete m k a Hk). repeat case_decide; tauto. Qed.

  Lemma cnt_zero m : (forall k a, m !! k = Some a -> ~ P a) -> cnt m = 0.
  Proof.
    intros Hn. apply map_size_empty_iff, map_filter_empty_iff. intros k a Hk. simpl. eauto.
  Qed.
End cnt.

Lemma cnt_fmap {K A} `{Countable K} (f : A -> A) (P : A -> Prop)
    `{!forall a, Decision (P a)} (m : gmap K A) :
  (forall a, P (f a) <-> P a) -> cnt P (f <$> m) = cnt P m.
Proof.
  intros Hf. unfold cnt. rewrite map_filter_fmap, map_size_fmap. f_equal.
  apply map_filter_ext. intros i x _. apply Hf.
Qed.

Lemma setm_lookup X k m n :
  setm X k m !! n = if decide (n ∈ X) then Some k else m !! n.
Proof.
  unfold setm. destruct (decide (n ∈ X)) as [Hn|Hn].
  - apply lookup_union_Some_l. apply lookup_gset_to_gmap_Some. auto.
  - rewrite lookup_union_r; auto. apply lookup_gset_to_gmap_None. auto.
Qed.

Lemma with_refs_id y : y = with_refs y (v_refs y).
Proof. by destruct y. Qed.

(* rootDecRef only deletes versions and changes reference counts *)
Lemma decref_vers {s v s'} : decref s v s' ->
  forall u y', vers s' !! u = Some y' ->
  exists y, vers s !! u = Some y /\ y' = with_refs y (v_refs y').
Proof.
  induction 1; simpl; intros u y' Hu.
  - apply lookup_insert_Some in Hu as [[<- <-]|[_ Hu]]; eauto using with_refs_id.
  - apply lookup_delete_Some in Hu as [_ Hu]. eauto using with_refs_id.
  - destruct (IHdecref u y' Hu) as (y & Hy & ?). simpl in Hy.
    apply lookup_delete_Some in Hy as [_ Hy]. eauto.
Qed.

Lemma decref_marks {s v s'} : decref s v s' ->
  forall n k, marks s' !! n = Some k -> k = F \/ marks s !! n = Some k.
Proof.
  induction 1; simpl; intros n0 k Hk; auto.
  - rewrite setm_lookup in Hk. destruct (decide (n0 ∈ fr)); [left; congruence|auto].
  - rewrite setm_lookup in Hk. destruct (decide (n0 ∈ fr)); [left; congruence|].
    destruct (IHdecref n0 k Hk); auto.
Qed.

Lemma decref_others s v s' : decref s v s' ->
  handles s' = handles s /\ pins s' = pins s /\ muts s' = muts s.
Proof. induction 1; simpl in *; auto. Qed.

(* the references of version u that somebody holds: handles, pins, a chained predecessor, mutations in flight *)
Definition holders (s : state) (u : vid) : nat :=
  cnt (fun hd => h_root hd = Some u) (handles s) + pin_count s u +
  cnt (fun y => v_chain y = Some u) (vers s) + cnt (fun m => m_ver m = u) (muts s).

Definition exc (ev : vid) (k : nat) (u : vid) : nat := if decide (u = ev) then k else 0.

(* the invariant; (ev,k): version ev carries k references "in hand" *)
Record Inv (s : state) (ev : vid) (k : nat) : Prop := {
  i_safe : forall w y n, vers s !! w = Some y -> n ∈ v_tree y ->
      exists c, marks s !! n = Some c /\ c <> F;
  i_mark : forall n u w y, marks s !! n = Some (M u) -> vers s !! w = Some y -> n ∈ v_tree y ->
      exists x, vers s !! u = Some x /\ v_lin y = v_lin x /\ v_seq y <= v_seq x;
  i_lin : forall n w y w' y', vers s !! w = Some y -> vers s !! w' = Some y' ->
      n ∈ v_tree y -> n ∈ v_tree y' -> v_lin y = v_lin y';
  i_seq : forall w y w' y', vers s !! w = Some y -> vers s !! w' = Some y' ->
      v_lin y = v_lin y' -> v_seq y = v_seq y' -> w = w';
  i_max : forall w y w' y', vers s !! w = Some y -> vers s !! w' = Some y' ->
      v_lin y = v_lin y' -> v_super y = false -> v_seq y' <= v_seq y;
  i_chsup : forall w y u, vers s !! w = Some y -> v_chain y = Some u -> v_super y = true;
  i_super : forall w y, vers s !! w = Some y -> v_super y = true ->
      (exists u x, v_chain y = Some u /\ vers s !! u = Some x /\
                   v_lin x = v_lin y /\ v_seq x = S (v_seq y))
      \/ (v_chain y = None /\ w = ev /\ 1 <= k /\ v_refs y = k);
  i_curU : forall w y n, vers s !! w = Some y -> v_super y = false -> n ∈ v_tree y ->
      marks s !! n = Some U \/
      (marks s !! n = Some (M w) /\ exists m, muts s !! (v_lin y) = Some m /\ m_ver m = w);
  i_handle : forall h hd v, handles s !! h = Some hd -> h_root hd = Some v ->
      exists x, vers s !! v = Some x /\ v_lin x = h_lin hd /\ (h_ro hd = false -> v_super x = false);
  i_wruniq : forall h1 hd1 h2 hd2, handles s !! h1 = Some hd1 -> handles s !! h2 = Some hd2 ->
      h_ro hd1 = false -> h_ro hd2 = false -> is_Some (h_root hd1) -> is_Some (h_root hd2) ->
      h_lin hd1 = h_lin hd2 -> h1 = h2;
  i_pin : forall v p, pins s !! v = Some (S p) -> is_Some (vers s !! v);
  i_mut : forall l m, muts s !! l = Some m ->
      exists hd x, handles s !! (m_handle m) = Some hd /\ h_lin hd = l /\ h_ro hd = false /\
                   h_root hd = Some (m_ver m) /\ vers s !! (m_ver m) = Some x;
  i_fresh : forall l m n, muts s !! l = Some m -> n ∈ m_fresh m ->
      (marks s !! n = Some U \/ marks s !! n = Some (M (m_ver m))) /\
      (forall w y, vers s !! w = Some y -> n ∉ v_tree y);
  i_frdisj : forall l1 m1 l2 m2 n, muts s !! l1 = Some m1 -> muts s !! l2 = Some m2 ->
      n ∈ m_fresh m1 -> n ∈ m_fresh m2 -> l1 = l2;
  i_refs : forall u x, vers s !! u = Some x -> v_refs x = holders s u + exc ev k u;
}.
Arguments i_safe {s ev k}.
Arguments i_mark {s ev k}.
Arguments i_lin {s ev k}.
Arguments i_seq {s ev k}.
Arguments i_max {s ev k}.
Arguments i_chsup {s ev k}.
Arguments i_super {s ev k}.
Arguments i_curU {s ev k}.
Arguments i_handle {s ev k}.
Arguments i_wruniq {s ev k}.
Arguments i_pin {s ev k}.
Arguments i_mut {s ev k}.
Arguments i_fresh {s ev k}.
Arguments i_frdisj {s ev k}.
Arguments i_refs {s ev k}.

(* start a proof of Inv for a changed state: the clauses that read nothing that changed are
   taken from I, the others are left *)
Ltac frame I :=
  constructor; simpl;
  [ try exact (i_safe I) | try exact (i_mark I) | try exact (i_lin I)
  | try exact (i_seq I) | try exact (i_max I) | try exact (i_chsup I)
  | try exact (i_super I) | try exact (i_curU I) | try exact (i_handle I)
  | try exact (i_wruniq I) | try exact (i_pin I) | try exact (i_mut I)
  | try exact (i_fresh I) | try exact (i_frdisj I) | try exact (i_refs I) ].

Lemma exc_same ev k : exc ev k ev = k.
Proof. unfold exc. by rewrite decide_True. Qed.
Lemma exc_ne ev k u : u <> ev -> exc ev k u = 0.
Proof. unfold exc. intros. by rewrite decide_False. Qed.

(* the position of the excess is irrelevant when there is none *)
Lemma Inv_irrel s ev k ev' k' :
  Inv s ev k -> (vers s !! ev = None \/ k = 0) -> (vers s !! ev' = None \/ k' = 0) ->
  Inv s ev' k'.
Proof.
  intros I H1 H2. frame I.
  - intros w y Hy Hs. destruct (i_super I w y Hy Hs) as [?|(? & -> & ? & ?)]; auto.
    exfalso. destruct H1; [congruence|lia].
  - intros u x Hx. rewrite (i_refs I u x Hx). f_equal. unfold exc.
    destruct (decide (u = ev)), (decide (u = ev')); subst; auto;
      destruct H1, H2; congruence || lia.
Qed.

(* the clause i_super when only the excess moves: ev must not be a superseded version without chain *)
Lemma super_shift {s ev k k'} : Inv s ev k ->
  (forall x, vers s !! ev = Some x -> v_super x = true -> v_chain x <> None) ->
  forall w y, vers s !! w = Some y -> v_super y = true ->
    (exists u x, v_chain y = Some u /\ vers s !! u = Some x /\ v_lin x = v_lin y /\ v_seq x = S (v_seq y))
    \/ (v_chain y = None /\ w = ev /\ 1 <= k' /\ v_refs y = k').
Proof.
  intros I Hch w y Hy Hs. destruct (i_super I w y Hy Hs) as [?|(Hc & -> & _)]; auto.
  destruct (Hch y Hy Hs Hc).
Qed.

(* a superseded version that someone still holds is chained to its successor *)
Lemma held_chained {s v k x} :
  Inv s v k -> 1 <= holders s v -> vers s !! v = Some x -> v_super x = true -> v_chain x <> None.
Proof.
  intros I Hh Hx Hs. destruct (i_super I v x Hx Hs) as [(u & ? & -> & _)|(_ & _ & _ & Hr)]; [done|].
  rewrite (i_refs I v x Hx), exc_same in Hr. lia.
Qed.

Lemma Inv_chained {s v x} :
  Inv s v 0 -> vers s !! v = Some x -> v_super x = true -> v_chain x <> None.
Proof.
  intros I Hx Hs. destruct (i_super I v x Hx Hs) as [(u & ? & -> & _)|(_ & _ & ? & _)]; [done|lia].
Qed.

(* changing only the reference count of one version *)
Lemma lookup_upd_refs s v x r w y : vers s !! v = Some x ->
  vers (upd_ver s v (with_refs x r)) !! w = Some y <->
  exists y0, vers s !! w = Some y0 /\ y = with_refs y0 (if decide (w = v) then r else v_refs y0).
Proof.
  intros Hx. simpl. rewrite lookup_insert_Some. split.
  - intros [[<- <-]|[Hne Hy]]; [exists x; by rewrite decide_True|exists y].
    rewrite decide_False by done. eauto using with_refs_id.
  - intros (y0 & Hy0 & ->). case_decide; simplify_eq; [by left|right]. by rewrite <-with_refs_id.
Qed.

Lemma refs_inv s v x k k' r :
  Inv s v k -> vers s !! v = Some x -> r + k = v_refs x + k' -> 1 <= r ->
  Inv (upd_ver s v (with_refs x r)) v k'.
Proof.
  intros I Hx Hr Hr1.
  pose proof (fun w y => lookup_upd_refs s v x r w y Hx) as Hlk.
  assert (Hlv : forall w y0, vers s !! w = Some y0 -> vers (upd_ver s v (with_refs x r)) !! w =
            Some (with_refs y0 (if decide (w = v) then r else v_refs y0))) by (intros; apply Hlk; eauto).
  frame I.
  - intros w y n (y0 & Hy0 & ->)%Hlk. apply (i_safe I w y0 n Hy0).
  - intros n u w y Hm (y0 & Hy0 & ->)%Hlk Hn.
    destruct (i_mark I n u w y0 Hm Hy0 Hn) as (x0 & Hx0%Hlv & ?). eauto.
  - intros n w y w' y' (y0 & Hy0 & ->)%Hlk (y0' & Hy0' & ->)%Hlk. apply (i_lin I n w y0 w' y0' Hy0 Hy0').
  - intros w y w' y' (y0 & Hy0 & ->)%Hlk (y0' & Hy0' & ->)%Hlk. apply (i_seq I w y0 w' y0' Hy0 Hy0').
  - intros w y w' y' (y0 & Hy0 & ->)%Hlk (y0' & Hy0' & ->)%Hlk. apply (i_max I w y0 w' y0' Hy0 Hy0').
  - intros w y u (y0 & Hy0 & ->)%Hlk. apply (i_chsup I w y0 u Hy0).
  - intros w y (y0 & Hy0 & ->)%Hlk Hsup.
    destruct (i_super I w y0 Hy0 Hsup) as [(u & x0 & ? & Hx0%Hlv & ?)|(? & -> & ? & ?)]; [left; eauto|right].
    rewrite decide_True by done. assert (y0 = x) as -> by congruence. simpl. repeat split; auto; lia.
  - intros w y n (y0 & Hy0 & ->)%Hlk. apply (i_curU I w y0 n Hy0).
  - intros h hd u Hh Hr0. destruct (i_handle I h hd u Hh Hr0) as (x0 & Hx0%Hlv & ?). eauto.
  - intros u p Hp. destruct (i_pin I u p Hp) as [x0 Hx0%Hlv]. eauto.
  - intros l m Hm. destruct (i_mut I l m Hm) as (hd & x0 & ? & ? & ? & ? & Hx0%Hlv). eauto 10.
  - intros l m n Hm Hn. destruct (i_fresh I l m n Hm Hn) as [? Hnt]. split; auto.
    intros w y (y0 & Hy0 & ->)%Hlk. apply (Hnt w y0 Hy0).
  - intros u y (y0 & Hy0 & ->)%Hlk. pose proof (i_refs I u y0 Hy0) as Hr0.
    unfold holders, pin_count in *. simpl. rewrite (cnt_insert_same _ _ _ x) by done.
    unfold exc in *. case_decide; simplify_eq; simpl; lia.
Qed.

Lemma pins_inv s v x n k k' :
  Inv s v k -> vers s !! v = Some x -> (v_super x = true -> v_chain x <> None) ->
  n + k' = pin_count s v + k -> Inv (set_pins s v n) v k'.
Proof.
  intros I Hx Hch Hn. frame I.
  - apply (super_shift I). intros y Hy. by simplify_eq.
  - intros u p [[<- _]|[_ Hp]]%lookup_insert_Some; eauto. eapply (i_pin I); eauto.
  - intros u y Hy. rewrite (i_refs I u y Hy). unfold holders, pin_count, exc in *. simpl.
    destruct (decide (u = v)) as [->|]; [rewrite lookup_insert|rewrite lookup_insert_ne by done]; simpl; lia.
Qed.

Lemma close_inv s h hd v ro k :
  Inv s v k -> handles s !! h = Some hd -> h_root hd = Some v ->
  (forall l m, muts s !! l = Some m -> m_handle m <> h) ->
  Inv (set_handle s h (Hd (h_lin hd) None ro)) v (S k).
Proof.
  intros I Hh Hr Hnm. frame I.
  - apply (super_shift I). intros x. apply (held_chained I).
    pose proof (cnt_pos (fun hd0 => h_root hd0 = Some v) Hh Hr). unfold holders. lia.
  - intros g gd u [[_ <-]|[_ Hg]]%lookup_insert_Some; [done|]. eapply (i_handle I); eauto.
  - intros h1 hd1 h2 hd2 [[_ <-]|[_ H1]]%lookup_insert_Some [[_ <-]|[_ H2]]%lookup_insert_Some ? ? [? ?] [? ?];
      try done. eapply (i_wruniq I); eauto.
  - intros l m Hm. destruct (i_mut I l m Hm) as (hd0 & x0 & ? & ?).
    exists hd0, x0. rewrite lookup_insert_ne; auto. intros Heq. eapply Hnm; eauto.
  - intros u x Hx. rewrite (i_refs I u x Hx). unfold holders, pin_count, exc. simpl.
    rewrite cnt_insert, (cnt_delete _ (handles s) h hd Hh), Hr. simpl.
    rewrite (decide_ext (Some v = Some u) (u = v)) by (split; congruence). clear. case_decide; lia.
Qed.

(* opening a handle on v, consuming one reference in hand *)
Lemma open_inv s h' l v ro x k :
  Inv s v (S k) -> handles s !! h' = None -> vers s !! v = Some x -> v_lin x = l ->
  (ro = false -> v_super x = false /\
     forall g gd, handles s !! g = Some gd -> h_ro gd = false -> is_Some (h_root gd) -> h_lin gd <> l) ->
  (v_super x = true -> v_chain x <> None) ->
  Inv (set_handle s h' (Hd l (Some v) ro)) v k.
Proof.
  intros I Hh Hx Hl Hw Hch. frame I.
  - apply (super_shift I). intros y Hy. by simplify_eq.
  - intros g gd u [[_ <-]|[_ Hg]]%lookup_insert_Some Hgr.
    + simplify_eq/=. exists x. split_and!; auto. intros Hro. apply Hw; auto.
    + eapply (i_handle I); eauto.
  - intros h1 hd1 h2 hd2 [[<- <-]|[Hn1 H1]]%lookup_insert_Some [[<- <-]|[Hn2 H2]]%lookup_insert_Some
      Hro1 Hro2 Ho1 Ho2 Hll; auto; simpl in Hro1, Hro2, Hll.
    + destruct (Hw Hro1) as [_ Hu]. destruct (Hu h2 hd2); auto.
    + destruct (Hw Hro2) as [_ Hu]. destruct (Hu h1 hd1); auto.
    + eapply (i_wruniq I); eauto.
  - intros l0 m Hm. destruct (i_mut I l0 m Hm) as (hd0 & x0 & Hh0 & ?).
    exists hd0, x0. rewrite lookup_insert_ne; auto. congruence.
  - intros u y Hy. rewrite (i_refs I u y Hy). unfold holders, pin_count, exc. simpl.
    rewrite cnt_insert_None by done. simpl.
    rewrite (decide_ext (Some v = Some u) (u = v)) by (split; congruence). clear. case_decide; lia.
Qed.

(* a mutation begins, consuming one reference in hand *)
Lemma mbegin_inv s h hd v x k :
  Inv s v (S k) -> handles s !! h = Some hd -> h_ro hd = false -> h_root hd = Some v ->
  vers s !! v = Some x -> muts s !! (h_lin hd) = None ->
  (v_super x = true -> v_chain x <> None) ->
  Inv (set_mut s (h_lin hd) (Some (Mut h v ∅))) v k.
Proof.
  intros I Hh Hro Hr Hx Hm Hch.
  frame I.
  - apply (super_shift I). intros y Hy. by simplify_eq.
  - intros w y n Hy Hs Hn. destruct (i_curU I w y n Hy Hs Hn) as [?|(? & m0 & Hm0 & ?)]; auto.
    right. split; auto. exists m0. split; auto. rewrite lookup_insert_ne; auto. congruence.
  - intros l m [[<- <-]|[_ Hl]]%lookup_insert_Some; [simpl; eauto 10|]. eapply (i_mut I); eauto.
  - intros l m n [[<- <-]|[_ Hl]]%lookup_insert_Some Hn; [by apply elem_of_empty in Hn|].
    eapply (i_fresh I); eauto.
  - intros l1 m1 l2 m2 n [[<- <-]|[_ H1]]%lookup_insert_Some [[<- <-]|[_ H2]]%lookup_insert_Some Hn1 Hn2;
      try by apply elem_of_empty in Hn1. { by apply elem_of_empty in Hn2. }
    eapply (i_frdisj I); eauto.
  - intros u y Hy. rewrite (i_refs I u y Hy). unfold holders, pin_count, exc. simpl.
    rewrite cnt_insert_None by done. simpl.
    rewrite (decide_ext (v = u) (u = v)) by (split; congruence). clear. case_decide; lia.
Qed.

Lemma no_holders s v : holders s v = 0 ->
  (forall h hd, handles s !! h = Some hd -> h_root hd <> Some v) /\
  pin_count s v = 0 /\
  (forall w y, vers s !! w = Some y -> v_chain y <> Some v) /\
  (forall l m, muts s !! l = Some m -> m_ver m <> v).
Proof.
  unfold holders. intros H0. repeat split.
  - intros h hd Hh Hr. pose proof (cnt_pos (fun hd => h_root hd = Some v) Hh Hr). lia.
  - lia.
  - intros w y Hy Hc. pose proof (cnt_pos (fun y => v_chain y = Some v) Hy Hc). lia.
  - intros l m Hm Hv. pose proof (cnt_pos (fun m => m_ver m = v) Hm Hv). lia.
Qed.

Lemma walk s v k x : Inv s v k -> vers s !! v = Some x ->
  forall d w y, vers s !! w = Some y -> v_lin y = v_lin x -> v_seq y + S d = v_seq x ->
  exists p yp, vers s !! p = Some yp /\ v_chain yp = Some v.
Proof.
  intros I Hx. induction d as [|d IH]; intros w y Hy Hl Hq;
    (assert (v_super y = true) as Hs
       by (destruct (v_super y) eqn:E; auto; pose proof (i_max I w y v x Hy Hx Hl E); lia));
    (destruct (i_super I w y Hy Hs) as [(u & x0 & Hc & Hx0 & Hl0 & Hq0)|(_ & -> & _)];
       [|simplify_eq; lia]).
  - assert (u = v) as -> by (eapply (i_seq I); eauto; [congruence|lia]). eauto.
  - apply (IH u x0 Hx0); [congruence|lia].
Qed.

Lemma no_older s v k x w y : Inv s v k -> vers s !! v = Some x -> holders s v = 0 ->
  vers s !! w = Some y -> v_lin y = v_lin x -> v_seq y <= v_seq x -> w = v.
Proof.
  intros I Hx H0 Hy Hl Hq.
  destruct (decide (v_seq y = v_seq x)) as [Heq|Hne].
  - eapply (i_seq I); eauto.
  - exfalso. destruct (walk s v k x I Hx (v_seq x - v_seq y - 1) w y Hy Hl) as (p & yp & Hp & Hc); [lia|].
    destruct (no_holders s v H0) as (_ & _ & Hnc & _). eapply Hnc; eauto.
Qed.

(* a version without holders is removed *)
Lemma del_inv s v k x ev' k' :
  Inv s v k -> vers s !! v = Some x -> holders s v = 0 ->
  (forall u, u <> v -> exc ev' k' u = if decide (v_chain x = Some u) then 1 else 0) ->
  Inv (St (marks s) (delete v (vers s)) (handles s) (pins s) (muts s)) ev' k'.
Proof.
  intros I Hx H0 Hex.
  destruct (no_holders s v H0) as (Hnh & Hnp & Hnc & Hnm).
  assert (Hlive : forall u y, vers s !! u = Some y -> u <> v -> delete v (vers s) !! u = Some y)
    by (intros; by rewrite lookup_delete_ne).
  frame I.
  - intros w y n [_ Hy]%lookup_delete_Some. eapply (i_safe I); eauto.
  - intros n u w y Hm [Hne Hy]%lookup_delete_Some Hn.
    destruct (i_mark I n u w y Hm Hy Hn) as (x0 & Hx0 & Hl & Hq).
    exists x0. split; auto. apply Hlive; auto. intros ->. simplify_eq.
    apply Hne. symmetry. eapply no_older; eauto.
  - intros n w y w' y' [_ Hy]%lookup_delete_Some [_ Hy']%lookup_delete_Some. eapply (i_lin I); eauto.
  - intros w y w' y' [_ Hy]%lookup_delete_Some [_ Hy']%lookup_delete_Some. eapply (i_seq I); eauto.
  - intros w y w' y' [_ Hy]%lookup_delete_Some [_ Hy']%lookup_delete_Some. eapply (i_max I); eauto.
  - intros w y u [_ Hy]%lookup_delete_Some. eapply (i_chsup I); eauto.
  - intros w y [Hne Hy]%lookup_delete_Some Hs.
    destruct (i_super I w y Hy Hs) as [(u & x0 & Hc & Hx0 & ? & ?)|(_ & -> & _)]; [|done].
    left. exists u, x0. split_and!; auto. apply Hlive; auto. intros ->. by apply (Hnc w y).
  - intros w y n [_ Hy]%lookup_delete_Some. eapply (i_curU I); eauto.
  - intros h hd u Hh Hr. destruct (i_handle I h hd u Hh Hr) as (x0 & Hx0 & ?).
    exists x0. split; auto. apply Hlive; auto. intros ->. by apply (Hnh h hd).
  - intros u p Hp. destruct (i_pin I u p Hp) as [x0 Hx0]. exists x0.
    apply Hlive; auto. intros ->. unfold pin_count in Hnp. by rewrite Hp in Hnp.
  - intros l m Hm. destruct (i_mut I l m Hm) as (hd & x0 & ? & ? & ? & ? & Hx0).
    exists hd, x0. split_and!; auto. apply Hlive; auto. intros Heq. by apply (Hnm l m).
  - intros l m n Hm Hn. destruct (i_fresh I l m n Hm Hn) as [? Hnt]. split; auto.
    intros w y [_ Hy]%lookup_delete_Some. eauto.
  - intros u y [Hne Hy]%lookup_delete_Some.
    rewrite (i_refs I u y Hy), exc_ne, Hex by auto. unfold holders, pin_count. simpl.
    rewrite (cnt_delete _ (vers s) v x Hx). lia.
Qed.

(* cells that are in no live tree and in no fresh set may go to the free list *)
Lemma free_inv s ev k (fr : gset cell) :
  Inv s ev k ->
  (forall n, n ∈ fr -> (forall w y, vers s !! w = Some y -> n ∉ v_tree y) /\
                      (forall l m, muts s !! l = Some m -> n ∉ m_fresh m)) ->
  Inv (St (setm fr F (marks s)) (vers s) (handles s) (pins s) (muts s)) ev k.
Proof.
  intros I Hfr.
  assert (Hnot : forall w y n, vers s !! w = Some y -> n ∈ v_tree y ->
            setm fr F (marks s) !! n = marks s !! n).
  { intros w y n Hy Hn. rewrite setm_lookup. destruct (decide (n ∈ fr)) as [Hin|]; auto.
    exfalso. destruct (Hfr n Hin) as [Ht _]. eapply Ht; eauto. }
  frame I.
  - intros w y n Hy Hn. rewrite (Hnot w y n Hy Hn). eapply (i_safe I); eauto.
  - intros n u w y Hm Hy Hn. rewrite (Hnot w y n Hy Hn) in Hm. eapply (i_mark I); eauto.
  - intros w y n Hy Hs Hn. rewrite (Hnot w y n Hy Hn). eapply (i_curU I); eauto.
  - intros l m n Hm Hn. destruct (i_fresh I l m n Hm Hn) as [Hk Hnt]. split; auto.
    rewrite setm_lookup. destruct (decide (n ∈ fr)) as [Hin|]; auto.
    exfalso. destruct (Hfr n Hin) as [_ Hf]. eapply Hf; eauto.
Qed.

(* cells carrying the mark of a dead version are in no live tree and no fresh set *)
Lemma dead_mark_free s ev k v n :
  Inv s ev k -> vers s !! v = None -> marks s !! n = Some (M v) ->
  (forall w y, vers s !! w = Some y -> n ∉ v_tree y) /\
  (forall l m, muts s !! l = Some m -> n ∉ m_fresh m).
Proof.
  intros I Hv Hm. split.
  - intros w y Hy Hn. destruct (i_mark I n v w y Hm Hy Hn) as (x0 & Hx0 & _). congruence.
  - intros l m Hl Hn. destruct (i_fresh I l m n Hl Hn) as [[Hk|Hk] _]; [congruence|].
    destruct (i_mut I l m Hl) as (? & x0 & _ & _ & _ & _ & Hx0).
    rewrite Hm in Hk. inversion Hk; subst. congruence.
Qed.

(* the last reference: nobody holds the version any more *)
Lemma last_ref {s v k x} :
  Inv s v (S k) -> vers s !! v = Some x -> v_refs x = 1 -> k = 0 /\ holders s v = 0.
Proof. intros I Hx Hr. rewrite (i_refs I v x Hx), exc_same in Hr. lia. Qed.

Lemma decref_inv {s v s'} : decref s v s' -> forall k, Inv s v (S k) -> Inv s' v k.
Proof.
  induction 1 as [s v x n Hx Hr|s v x fr Hx Hr Hc Hfr|s v x w s1 fr Hx Hr Hc Hd IH Hfr]; intros k I.
  - eapply refs_inv; eauto; lia.
  - destruct (last_ref I Hx Hr) as [-> H0].
    assert (Inv (St (marks s) (delete v (vers s)) (handles s) (pins s) (muts s)) v 0) as I1.
    { eapply del_inv; eauto. intros u Hne. rewrite exc_ne, Hc by auto. by rewrite decide_False. }
    apply (free_inv _ _ _ fr I1).
    intros n Hn. destruct (Hfr n Hn) as [Hin [Hm|(Hs & Ht & Hm)]].
    + eapply dead_mark_free; eauto. simpl. apply lookup_delete.
    + simpl. split.
      * intros w y [Hne Hy]%lookup_delete_Some Hny. apply Hne. symmetry.
        assert (v_lin y = v_lin x) by (eapply (i_lin I); eauto).
        eapply (no_older s v _ x w y); eauto. eapply (i_max I v x w y); eauto.
      * intros l m Hl Hnf. destruct (i_fresh I l m n Hl Hnf) as [_ Hnt]. eapply Hnt; eauto.
  - destruct (last_ref I Hx Hr) as [-> H0].
    assert (Inv (St (marks s) (delete v (vers s)) (handles s) (pins s) (muts s)) w 1) as I1.
    { eapply del_inv; eauto. intros u Hne. rewrite Hc. unfold exc. repeat case_decide; congruence. }
    apply IH in I1.
    assert (vers s1 !! v = None) as Hdead.
    { destruct (vers s1 !! v) as [y'|] eqn:E; auto.
      destruct (decref_vers Hd v y' E) as (y0 & Hy0 & _). simpl in Hy0.
      by rewrite lookup_delete in Hy0. }
    apply (free_inv _ _ _ fr) in I1.
    + eapply Inv_irrel; eauto.
    + intros n Hn. destruct (Hfr n Hn) as [Hin [Hm|(Hs & _)]].
      * eapply dead_mark_free; eauto.
      * by rewrite (i_chsup I v x w Hx Hc) in Hs.
Qed.

Lemma dead_no_holders {s ev k v} : Inv s ev k -> vers s !! v = None -> holders s v = 0.
Proof.
  intros I Hv. unfold holders, pin_count.
  rewrite (cnt_zero (fun hd => h_root hd = Some v)), (cnt_zero (fun y => v_chain y = Some v)),
          (cnt_zero (fun m => m_ver m = v)).
  - destruct (pins s !! v) as [[|p]|] eqn:E; auto.
    destruct (i_pin I v p E). congruence.
  - intros l m Hm <-. destruct (i_mut I l m Hm) as (? & ? & _ & _ & _ & _ & ?). congruence.
  - intros w y Hy Hc. pose proof (i_chsup I w y v Hy Hc) as Hs.
    destruct (i_super I w y Hy Hs) as [(u & x0 & Hc' & Hx0 & _)|(Hc' & _)]; congruence.
  - intros h hd Hh Hr. destruct (i_handle I h hd v Hh Hr) as (? & ? & _). congruence.
Qed.

(* a new version of a new lineage, its one reference in hand *)
Lemma addver_inv s l v :
  Inv s v 0 -> vers s !! v = None -> (forall w y, vers s !! w = Some y -> v_lin y <> l) ->
  Inv (St (marks s) (<[v := Ver l 0 ∅ ∅ 1 None false]> (vers s)) (handles s) (pins s) (muts s)) v 1.
Proof.
  intros I Hv Hlv.
  pose proof (dead_no_holders I Hv) as H0.
  assert (Hmono : forall w y, vers s !! w = Some y ->
            <[v := Ver l 0 ∅ ∅ 1 None false]> (vers s) !! w = Some y).
  { intros w y Hy. rewrite lookup_insert_ne; auto. congruence. }
  frame I.
  - intros w y n [[_ <-]|[_ Hy]]%lookup_insert_Some Hn; [by apply elem_of_empty in Hn|].
    eapply (i_safe I); eauto.
  - intros n u w y Hm [[_ <-]|[_ Hy]]%lookup_insert_Some Hn; [by apply elem_of_empty in Hn|].
    destruct (i_mark I n u w y Hm Hy Hn) as (x0 & Hx0 & ?). eauto.
  - intros n w y w' y' [[_ <-]|[_ Hy]]%lookup_insert_Some [[_ <-]|[_ Hy']]%lookup_insert_Some Hn Hn';
      try by apply elem_of_empty in Hn. { by apply elem_of_empty in Hn'. }
    eapply (i_lin I); eauto.
  - intros w y w' y' [[<- <-]|[_ Hy]]%lookup_insert_Some [[<- <-]|[_ Hy']]%lookup_insert_Some Hl Hq;
      auto; simpl in Hl.
    + destruct (Hlv w' y'); auto.
    + destruct (Hlv w y); auto.
    + eapply (i_seq I); eauto.
  - intros w y w' y' [[<- <-]|[_ Hy]]%lookup_insert_Some [[<- <-]|[_ Hy']]%lookup_insert_Some Hl Hs;
      auto; simpl in Hl.
    + destruct (Hlv w' y'); auto.
    + destruct (Hlv w y); auto.
    + eapply (i_max I); eauto.
  - intros w y u [[_ <-]|[_ Hy]]%lookup_insert_Some; [done|]. eapply (i_chsup I); eauto.
  - intros w y [[_ <-]|[_ Hy]]%lookup_insert_Some Hs; [done|].
    destruct (i_super I w y Hy Hs) as [(u & x0 & ? & Hx0 & ?)|(_ & _ & ? & _)]; [|lia].
    left. exists u, x0. auto.
  - intros w y n [[_ <-]|[_ Hy]]%lookup_insert_Some Hs Hn; [by apply elem_of_empty in Hn|].
    eapply (i_curU I); eauto.
  - intros g gd u Hg Hr. destruct (i_handle I g gd u Hg Hr) as (x0 & Hx0 & ?). eauto.
  - intros u p Hp. destruct (i_pin I u p Hp) as [x0 Hx0]. eauto.
  - intros l0 m Hm. destruct (i_mut I l0 m Hm) as (hd & x0 & ? & ? & ? & ? & Hx0). eauto 10.
  - intros l0 m n Hm Hn. destruct (i_fresh I l0 m n Hm Hn) as [? Hnt]. split; auto.
    intros w y [[_ <-]|[_ Hy]]%lookup_insert_Some; [apply not_elem_of_empty|eauto].
  - intros u y [[<- <-]|[Hne Hy]]%lookup_insert_Some; unfold holders, pin_count in *; simpl;
      rewrite cnt_insert_None by done; simpl.
    + rewrite exc_same. lia.
    + by rewrite (i_refs I u y Hy), !exc_ne.
Qed.

(* lazy loads: an allocatable cell c becomes U and is added to some trees *)
Definition set_tree (y : version) (t : gset cell) : version :=
  Ver (v_lin y) (v_seq y) t (v_later y) (v_refs y) (v_chain y) (v_super y).

Lemma alloc_not_tree {s ev k c} : Inv s ev k -> allocatable s c ->
  forall w y, vers s !! w = Some y -> c ∉ v_tree y.
Proof.
  intros I Ha w y Hy Hc. destruct (i_safe I w y c Hy Hc) as (m & Hm & HF).
  destruct Ha; congruence.
Qed.

Lemma alloc_not_fresh {s ev k c} : Inv s ev k -> allocatable s c ->
  forall l m, muts s !! l = Some m -> c ∉ m_fresh m.
Proof.
  intros I Ha l m Hm Hc. destruct (i_fresh I l m c Hm Hc) as [[?|?] _];
  destruct Ha; congruence.
Qed.

Lemma grow_inv s ev k c (vs' : gmap vid version) :
  Inv s ev k -> allocatable s c ->
  (forall w y', vs' !! w = Some y' -> exists y t, vers s !! w = Some y /\ y' = set_tree y t /\
      (t = v_tree y \/ t = v_tree y ∪ {[c]})) ->
  (forall w y, vers s !! w = Some y -> is_Some (vs' !! w)) ->
  (forall w1 y1 w2 y2, vs' !! w1 = Some y1 -> vs' !! w2 = Some y2 ->
      c ∈ v_tree y1 -> c ∈ v_tree y2 -> v_lin y1 = v_lin y2) ->
  (forall u, cnt (fun y => v_chain y = Some u) vs' = cnt (fun y => v_chain y = Some u) (vers s)) ->
  Inv (St (<[c := U]> (marks s)) vs' (handles s) (pins s) (muts s)) ev k.
Proof.
  intros I Ha Hlk Hlv0 Hcl Hcnt.
  pose proof (alloc_not_tree I Ha) as Hct.
  pose proof (alloc_not_fresh I Ha) as Hcf.
  assert (Hlv : forall w y, vers s !! w = Some y -> exists t, vs' !! w = Some (set_tree y t)).
  { intros w y Hy. destruct (Hlv0 w y Hy) as [y' Hy'].
    destruct (Hlk w y' Hy') as (y0 & t & ? & -> & _). simplify_eq. eauto. }
  (* a cell of a new tree is c, or a cell other than c of the old tree *)
  assert (Hin : forall w y t n, vers s !! w = Some y -> t = v_tree y \/ t = v_tree y ∪ {[c]} -> n ∈ t ->
            n = c \/ (n <> c /\ n ∈ v_tree y)).
  { intros w y t n Hy [->| ->] Hn; [|apply elem_of_union in Hn as [Hn|Hn%elem_of_singleton]; auto];
      right; (split; [intros ->; by apply (Hct w y)|done]). }
  frame I.
  - intros w y' n (y & t & Hy & -> & Ht)%Hlk Hn. destruct (Hin w y t n Hy Ht Hn) as [->|[Hne Hn0]].
    + rewrite lookup_insert. by eexists.
    + rewrite lookup_insert_ne by done. eapply (i_safe I); eauto.
  - intros n u w y' Hm (y & t & Hy & -> & Ht)%Hlk Hn. destruct (Hin w y t n Hy Ht Hn) as [->|[Hne Hn0]].
    + by rewrite lookup_insert in Hm.
    + rewrite lookup_insert_ne in Hm by done.
      destruct (i_mark I n u w y Hm Hy Hn0) as (x0 & [t0 Hx0]%Hlv & ?). eauto.
  - intros n w y1 w' y2 Hy1 Hy2 Hn1 Hn2.
    destruct (Hlk w y1 Hy1) as (y10 & t1 & Hy10 & -> & Ht1), (Hlk w' y2 Hy2) as (y20 & t2 & Hy20 & -> & Ht2).
    destruct (Hin w y10 t1 n Hy10 Ht1 Hn1) as [->|[Hne Hn10]]; [by apply (Hcl w _ w' _ Hy1 Hy2)|].
    destruct (Hin w' y20 t2 n Hy20 Ht2 Hn2) as [->|[_ Hn20]]; [done|].
    apply (i_lin I n w y10 w' y20 Hy10 Hy20 Hn10 Hn20).
  - intros w y1 w' y2 (y10 & ? & Hy10 & -> & _)%Hlk (y20 & ? & Hy20 & -> & _)%Hlk.
    apply (i_seq I w y10 w' y20 Hy10 Hy20).
  - intros w y1 w' y2 (y10 & ? & Hy10 & -> & _)%Hlk (y20 & ? & Hy20 & -> & _)%Hlk.
    apply (i_max I w y10 w' y20 Hy10 Hy20).
  - intros w y' u (y & ? & Hy & -> & _)%Hlk. apply (i_chsup I w y u Hy).
  - intros w y' (y & ? & Hy & -> & _)%Hlk Hs.
    destruct (i_super I w y Hy Hs) as [(u & x0 & ? & [t0 Hx0]%Hlv & ?)|?]; [left|by right].
    exists u, (set_tree x0 t0). auto.
  - intros w y' n (y & t & Hy & -> & Ht)%Hlk Hs Hn. destruct (Hin w y t n Hy Ht Hn) as [->|[Hne Hn0]].
    + left. apply lookup_insert.
    + rewrite lookup_insert_ne by done. apply (i_curU I w y n Hy Hs Hn0).
  - intros h hd u Hh Hr. destruct (i_handle I h hd u Hh Hr) as (x0 & [t0 Hx0]%Hlv & ?). eauto.
  - intros u p Hp. destruct (i_pin I u p Hp) as [x0 [t0 Hx0]%Hlv]. eauto.
  - intros l m Hm. destruct (i_mut I l m Hm) as (hd & x0 & ? & ? & ? & ? & [t0 Hx0]%Hlv). eauto 10.
  - intros l m n Hm Hn. destruct (i_fresh I l m n Hm Hn) as [Hk Hnt].
    assert (n <> c) as Hne by (intros ->; by apply (Hcf l m)).
    rewrite lookup_insert_ne by done. split; auto.
    intros w y' (y & t & Hy & -> & Ht)%Hlk Hn'.
    destruct (Hin w y t n Hy Ht Hn') as [->|[_ Hn0]]; [done|]. by apply (Hnt w y).
  - intros u y' (y & ? & Hy & -> & _)%Hlk. simpl. rewrite (i_refs I u y Hy).
    unfold holders, pin_count. simpl. by rewrite Hcnt.
Qed.

Lemma mut_facts {s ev k l m x} : Inv s ev k -> muts s !! l = Some m -> vers s !! (m_ver m) = Some x ->
  exists hd, handles s !! (m_handle m) = Some hd /\ h_lin hd = l /\ h_ro hd = false /\
    h_root hd = Some (m_ver m) /\ v_lin x = l /\ v_super x = false.
Proof.
  intros I Hm Hx. destruct (i_mut I l m Hm) as (hd & x' & Hh & Hl & Hro & Hr & Hx').
  destruct (i_handle I _ hd _ Hh Hr) as (? & ? & Hl' & Hs'). simplify_eq. eauto 10.
Qed.

(* the unsuperseded version of a lineage is unique *)
Lemma cur_unique {s ev k w y w' y'} : Inv s ev k ->
  vers s !! w = Some y -> vers s !! w' = Some y' -> v_lin y = v_lin y' ->
  v_super y = false -> v_super y' = false -> w = w'.
Proof.
  intros I Hy Hy' Hl Hs Hs'. eapply (i_seq I); eauto.
  pose proof (i_max I w y w' y' Hy Hy' Hl Hs).
  pose proof (i_max I w' y' w y Hy' Hy (eq_sym Hl) Hs'). lia.
Qed.

Lemma unsuper_unchained {s ev k w y} :
  Inv s ev k -> vers s !! w = Some y -> v_super y = false -> v_chain y = None.
Proof.
  intros I Hy Hs. destruct (v_chain y) as [u|] eqn:E; auto.
  pose proof (i_chsup I w y u Hy E). congruence.
Qed.

(* allocate and mark during a mutation *)
Lemma mbuild_inv s ev k l m x (new mkd : gset cell) :
  Inv s ev k -> muts s !! l = Some m -> vers s !! (m_ver m) = Some x ->
  (forall n, n ∈ new -> allocatable s n) ->
  mkd ⊆ v_tree x ∪ m_fresh m ∪ new ->
  (forall n, n ∈ mkd -> n ∉ new -> marks s !! n = Some U) ->
  Inv (set_mut (set_marks s (setm mkd (M (m_ver m)) (setm new U (marks s))))
               l (Some (Mut (m_handle m) (m_ver m) (m_fresh m ∪ new)))) ev k.
Proof.
  intros I Hm Hx Hnew Hmk HmkU.
  destruct (mut_facts I Hm Hx) as (hd & Hh & Hhl & Hro & Hr & Hxl & Hxs).
  set (mk' := setm mkd (M (m_ver m)) (setm new U (marks s))).
  assert (Hmk' : forall n, mk' !! n = if decide (n ∈ mkd) then Some (M (m_ver m))
                   else if decide (n ∈ new) then Some U else marks s !! n).
  { intros n. unfold mk'. rewrite !setm_lookup. auto. }
  assert (Hnt : forall n w y, n ∈ new -> vers s !! w = Some y -> n ∉ v_tree y).
  { intros n w y Hn. eapply alloc_not_tree; eauto. }
  assert (Hnf : forall n l0 m0, n ∈ new -> muts s !! l0 = Some m0 -> n ∉ m_fresh m0).
  { intros n l0 m0 Hn. eapply alloc_not_fresh; eauto. }
  (* marked cells of live trees are in the tree of x, hence in its lineage *)
  assert (Htree : forall n w y, vers s !! w = Some y -> n ∈ v_tree y -> n ∈ mkd -> v_lin y = v_lin x).
  { intros n w y Hy Hn Hin. apply Hmk in Hin. apply elem_of_union in Hin as [Hin|Hin].
    - apply elem_of_union in Hin as [Hin|Hin]; [eapply (i_lin I); eauto|].
      exfalso. destruct (i_fresh I l m n Hm Hin) as [_ Hc]. eapply Hc; eauto.
    - exfalso. eapply Hnt; eauto. }
  frame I; fold mk'.
  - intros w y n Hy Hn. rewrite Hmk'.
    destruct (decide (n ∈ mkd)); [by eexists|].
    destruct (decide (n ∈ new)); [by eexists|].
    eapply (i_safe I); eauto.
  - intros n u w y Hk Hy Hn. rewrite Hmk' in Hk.
    destruct (decide (n ∈ mkd)) as [Hin|].
    + inversion Hk; subst. exists x. split; auto.
      pose proof (Htree n w y Hy Hn Hin) as Hl.
      split; auto. eapply (i_max I (m_ver m) x w y); eauto.
    + destruct (decide (n ∈ new)); [discriminate|]. eapply (i_mark I); eauto.
  - intros w y n Hy Hs Hn. rewrite Hmk'.
    destruct (decide (n ∈ mkd)) as [Hin|].
    + right. pose proof (Htree n w y Hy Hn Hin) as Hl.
      assert (w = m_ver m) as -> by (eapply cur_unique; eauto).
      split; auto. rewrite Hl, Hxl, lookup_insert. eauto.
    + destruct (decide (n ∈ new)) as [Hin'|]; [exfalso; eapply Hnt; eauto|].
      destruct (i_curU I w y n Hy Hs Hn) as [?|(? & m0 & Hm0 & Hv0)]; auto.
      right. split; auto. destruct (decide (v_lin y = l)) as [Hl|Hl].
      * rewrite Hl, lookup_insert. rewrite Hl in Hm0. assert (m0 = m) as -> by congruence. eauto.
      * rewrite lookup_insert_ne by auto. eauto.
  - intros l0 m0 Hm0. apply lookup_insert_Some in Hm0 as [[<- <-]|[_ Hm0]].
    + simpl. exists hd, x. auto.
    + eapply (i_mut I); eauto.
  - intros l0 m0 n Hm0 Hn. apply lookup_insert_Some in Hm0 as [[<- <-]|[Hne Hm0]].
    + simpl in Hn |- *. rewrite Hmk'. split.
      * destruct (decide (n ∈ mkd)); auto. destruct (decide (n ∈ new)); auto.
        apply elem_of_union in Hn as [Hn|Hn]; [|contradiction].
        eapply (i_fresh I); eauto.
      * intros w y Hy. apply elem_of_union in Hn as [Hn|Hn].
        -- destruct (i_fresh I l m n Hm Hn) as [_ Hc]. eauto.
        -- eauto.
    + destruct (i_fresh I l0 m0 n Hm0 Hn) as [Hk Hc]. split; auto.
      rewrite Hmk'. destruct (decide (n ∈ mkd)) as [Hin|].
      * exfalso. apply Hmk in Hin. apply elem_of_union in Hin as [Hin|Hin].
        -- apply elem_of_union in Hin as [Hin|Hin]; [eapply Hc; eauto|].
           apply Hne. eapply (i_frdisj I); eauto.
        -- eapply Hnf; eauto.
      * destruct (decide (n ∈ new)) as [Hin|]; auto.
  - intros l1 m1 l2 m2 n H1 H2 Hn1 Hn2.
    apply lookup_insert_Some in H1 as [[<- <-]|[Hne1 H1]];
    apply lookup_insert_Some in H2 as [[<- <-]|[Hne2 H2]]; auto; simpl in Hn1, Hn2.
    + apply elem_of_union in Hn1 as [Hn1|Hn1]; [eapply (i_frdisj I); eauto|].
      exfalso. eapply Hnf; eauto.
    + apply elem_of_union in Hn2 as [Hn2|Hn2]; [eapply (i_frdisj I); eauto|].
      exfalso. eapply Hnf; eauto.
    + eapply (i_frdisj I); eauto.
  - intros u y Hy. rewrite (i_refs I u y Hy). unfold holders, pin_count. simpl.
    rewrite (cnt_insert_same (fun m0 => m_ver m0 = u) _ _ m); auto.
Qed.

(* a failed mutation clears its marks on the current tree and goes away *)
Lemma abort_inv s k l m x :
  Inv s (m_ver m) k -> muts s !! l = Some m -> vers s !! (m_ver m) = Some x ->
  Inv (set_mut (set_marks s
          (setm (filter (fun n => marks s !! n = Some (M (m_ver m))) (v_tree x)) U (marks s)))
          l None) (m_ver m) (S k).
Proof.
  intros I Hm Hx.
  destruct (mut_facts I Hm Hx) as (_ & _ & _ & _ & _ & _ & Hxs).
  set (R := filter (fun n => marks s !! n = Some (M (m_ver m))) (v_tree x)).
  assert (HR : forall n, n ∈ R <-> marks s !! n = Some (M (m_ver m)) /\ n ∈ v_tree x).
  { intros n. unfold R. rewrite elem_of_filter. tauto. }
  frame I; fold R.
  - intros w y n Hy Hn. rewrite setm_lookup.
    destruct (decide (n ∈ R)); [by eexists|].
    eapply (i_safe I); eauto.
  - intros n u w y Hk Hy Hn. rewrite setm_lookup in Hk.
    destruct (decide (n ∈ R)); [discriminate|]. eapply (i_mark I); eauto.
  - intros w y Hy Hs. destruct (i_super I w y Hy Hs) as [?|(_ & -> & _)]; auto.
    exfalso. congruence.
  - intros w y n Hy Hs Hn. rewrite setm_lookup.
    destruct (decide (n ∈ R)) as [Hin|Hin]; auto.
    destruct (i_curU I w y n Hy Hs Hn) as [?|(Hk & m0 & Hm0 & Hv0)]; auto.
    right. split; auto. exists m0. split; auto.
    rewrite lookup_delete_ne; auto. intros Heq. rewrite <- Heq in Hm0.
    assert (m0 = m) as -> by congruence. subst w.
    assert (y = x) as -> by congruence. apply Hin. apply HR. auto.
  - intros l0 m0 Hm0. apply lookup_delete_Some in Hm0 as [_ Hm0]. eapply (i_mut I); eauto.
  - intros l0 m0 n Hm0 Hn. apply lookup_delete_Some in Hm0 as [_ Hm0].
    destruct (i_fresh I l0 m0 n Hm0 Hn) as [Hk Hc]. split; auto.
    rewrite setm_lookup. destruct (decide (n ∈ R)) as [Hin|]; auto.
  - intros l1 m1 l2 m2 n H1 H2. apply lookup_delete_Some in H1 as [_ H1].
    apply lookup_delete_Some in H2 as [_ H2]. eapply (i_frdisj I); eauto.
  - intros u y Hy. rewrite (i_refs I u y Hy). unfold holders, pin_count, exc. simpl.
    rewrite (cnt_delete _ (muts s) l m Hm), (decide_ext (m_ver m = u) (u = m_ver m)) by (split; congruence).
    clear. case_decide; lia.
Qed.


(* what publication does to the holder counts: the handle moves from mv to v', the mutation on mv
   ends, and the old version may now chain to the new one *)
Lemma holders_cas s mh hd mv x l m v' xnew xold hd' mk :
  handles s !! mh = Some hd -> h_root hd = Some mv -> vers s !! mv = Some x -> v_chain x = None ->
  muts s !! l = Some m -> m_ver m = mv -> vers s !! v' = None -> v' <> mv ->
  v_chain xnew = None -> h_root hd' = Some v' ->
  forall u,
    holders (St mk (<[v' := xnew]> (<[mv := xold]> (vers s))) (<[mh := hd']> (handles s)) (pins s)
                (delete l (muts s))) u + (if decide (u = mv) then 2 else 0) =
    holders s u + (if decide (u = v') then 1 else 0) + (if decide (v_chain xold = Some u) then 1 else 0).
Proof.
  intros Hh Hr Hx Hxc Hm Hmv Hv' Hne Hcn Hr' u. unfold holders, pin_count. simpl.
  rewrite cnt_insert, cnt_insert_None, cnt_insert by (by rewrite lookup_insert_ne).
  rewrite (cnt_delete _ (handles s) mh hd Hh), (cnt_delete _ (vers s) mv x Hx), (cnt_delete _ (muts s) l m Hm).
  rewrite Hr, Hxc, Hmv, Hcn, Hr'. simpl.
  rewrite (decide_ext (Some v' = Some u) (u = v')), (decide_ext (Some mv = Some u) (u = mv)),
    (decide_ext (mv = u) (u = mv)) by (split; congruence).
  clear. destruct (decide (u = mv)); lia.
Qed.

(* publication of a new version (mkRootNodeLoc + reclaimMarkUpdate + rootCAS);
   afterwards the old version carries two references in hand *)
Lemma cas_inv s l m hd x v' (tr' lat' rm : gset cell) :
  Inv s (m_ver m) 0 ->
  muts s !! l = Some m -> handles s !! (m_handle m) = Some hd -> h_root hd = Some (m_ver m) ->
  vers s !! (m_ver m) = Some x -> vers s !! v' = None ->
  tr' ⊆ v_tree x ∪ m_fresh m ->
  (forall n, n ∈ tr' -> marks s !! n = Some U) ->
  rm ⊆ v_tree x ∪ m_fresh m ->
  (forall n, n ∈ rm -> marks s !! n = Some (M (m_ver m)) \/ (marks s !! n = Some U /\ n ∉ tr')) ->
  let chained := bool_decide (2 < v_refs x) in
  let xnew := Ver l (S (v_seq x)) tr' lat' (if chained then 2 else 1) None false in
  let xold := Ver (v_lin x) (v_seq x) (v_tree x) (v_later x) (v_refs x)
                  (if chained then Some v' else v_chain x) true in
  Inv (St (setm rm (M v') (marks s))
          (<[v' := xnew]> (<[m_ver m := xold]> (vers s)))
          (<[m_handle m := Hd (h_lin hd) (Some v') false]> (handles s))
          (pins s) (delete l (muts s))) (m_ver m) 2.
Proof.
  intros I Hm Hh Hr Hx Hv' Htr HtrU Hrm HrmM chained xnew xold.
  set (mv := m_ver m) in *. set (mh := m_handle m) in *.
  destruct (mut_facts I Hm Hx) as (hd' & Hh' & Hhl & Hro & _ & Hxl & Hxs).
  fold mh in Hh'. assert (hd' = hd) as -> by congruence. clear Hh'.
  pose proof (unsuper_unchained I Hx Hxs) as Hxc.
  assert (Hne : v' <> mv) by (intros ->; congruence).
  pose proof (dead_no_holders I Hv') as H0.
  assert (Hfresh_tree : forall n w y, n ∈ m_fresh m -> vers s !! w = Some y -> n ∉ v_tree y).
  { intros n w y Hn Hy. destruct (i_fresh I l m n Hm Hn) as [_ Hc]. eauto. }
  (* cells of old trees that are in tr' or rm are in the tree of x *)
  assert (Hinx : forall n w y, vers s !! w = Some y -> n ∈ v_tree y ->
            n ∈ v_tree x ∪ m_fresh m -> n ∈ v_tree x /\ v_lin y = l /\ v_seq y <= v_seq x).
  { intros n w y Hy Hn Hin. apply elem_of_union in Hin as [Hin|Hin];
      [|exfalso; eapply Hfresh_tree; eauto].
    assert (v_lin y = v_lin x) as Hl by (eapply (i_lin I); eauto).
    repeat split; auto; [congruence|]. eapply (i_max I mv x w y); eauto. }
  assert (HA : forall n, n ∈ tr' -> n ∉ rm /\ marks s !! n = Some U).
  { intros n Hn. split; auto. intros Hin. pose proof (HtrU n Hn) as HU.
    destruct (HrmM n Hin) as [?|[_ ?]]; [congruence|contradiction]. }
  set (vs1 := <[v' := xnew]> (<[mv := xold]> (vers s))).
  assert (Hlk : forall w y, vs1 !! w = Some y ->
     (w = v' /\ y = xnew) \/
     (w <> v' /\ exists y0, vers s !! w = Some y0 /\ v_lin y = v_lin y0 /\ v_seq y = v_seq y0 /\
        v_tree y = v_tree y0 /\ ((w = mv /\ y0 = x /\ y = xold) \/ (w <> mv /\ y = y0)))).
  { intros w y Hy. unfold vs1 in Hy. apply lookup_insert_Some in Hy as [[<- <-]|[Hn1 Hy]]; auto.
    right. split; auto. apply lookup_insert_Some in Hy as [[<- <-]|[Hn2 Hy]].
    - exists x. simpl. auto 10.
    - exists y. auto 10. }
  assert (Hlv : forall w y0, vers s !! w = Some y0 ->
     exists y, vs1 !! w = Some y /\ v_lin y = v_lin y0 /\ v_seq y = v_seq y0 /\ (w <> mv -> y = y0)).
  { intros w y0 Hy0. unfold vs1. rewrite lookup_insert_ne by congruence.
    destruct (decide (w = mv)) as [->|Hn].
    - rewrite lookup_insert. assert (y0 = x) as -> by congruence. by eexists; split_and!.
    - rewrite lookup_insert_ne by auto. eauto 6. }
  assert (Hnew : vs1 !! v' = Some xnew) by (unfold vs1; apply lookup_insert).
  assert (Hrefs : 2 <= v_refs x).
  { rewrite (i_refs I mv x Hx). unfold holders.
    pose proof (cnt_pos (fun hd0 => h_root hd0 = Some mv) Hh Hr).
    pose proof (cnt_pos (fun m0 => m_ver m0 = mv) Hm eq_refl). lia. }
  constructor; simpl; fold vs1.
  - (* i_safe *)
    intros w y n Hy Hn. rewrite setm_lookup.
    destruct (decide (n ∈ rm)); [by eexists|].
    destruct (Hlk w y Hy) as [[-> ->]|(_ & y0 & Hy0 & _ & _ & Ht & _)].
    + simpl in Hn. destruct (HA n Hn) as [_ HU]. by eexists.
    + rewrite Ht in Hn. apply (i_safe I w y0 n Hy0 Hn).
  - (* i_mark *)
    intros n u w y Hk Hy Hn. rewrite setm_lookup in Hk.
    destruct (Hlk w y Hy) as [[-> ->]|(_ & y0 & Hy0 & Hl & Hq & Ht & _)].
    + simpl in Hn. destruct (HA n Hn) as [Hnr HU]. rewrite decide_False in Hk by auto. congruence.
    + rewrite Ht in Hn. rewrite Hl, Hq. destruct (decide (n ∈ rm)) as [Hin|Hin].
      * inversion Hk; subst u. exists xnew. split; auto. simpl.
        destruct (Hinx n w y0 Hy0 Hn (Hrm n Hin)) as (_ & ? & ?). split; auto.
      * destruct (i_mark I n u w y0 Hk Hy0 Hn) as (x0 & Hx0 & ? & ?).
        destruct (Hlv u x0 Hx0) as (x1 & Hx1 & Hl1 & Hq1 & _). exists x1. rewrite Hl1, Hq1. auto.
  - (* i_lin *)
    intros n w y w' y' Hy Hy' Hn Hn'.
    destruct (Hlk w y Hy) as [[-> ->]|(_ & y0 & Hy0 & Hl & _ & Ht & _)];
    destruct (Hlk w' y' Hy') as [[-> ->]|(_ & y0' & Hy0' & Hl' & _ & Ht' & _)]; auto.
    + simpl in Hn |- *. rewrite Ht' in Hn'. rewrite Hl'.
      destruct (Hinx n w' y0' Hy0' Hn' (Htr n Hn)) as (_ & ? & _). auto.
    + simpl in Hn' |- *. rewrite Ht in Hn. rewrite Hl.
      destruct (Hinx n w y0 Hy0 Hn (Htr n Hn')) as (_ & ? & _). auto.
    + rewrite Ht in Hn. rewrite Ht' in Hn'. rewrite Hl, Hl'.
      apply (i_lin I n w y0 w' y0' Hy0 Hy0' Hn Hn').
  - (* i_seq *)
    intros w y w' y' Hy Hy' Hll Hqq.
    destruct (Hlk w y Hy) as [[-> ->]|(_ & y0 & Hy0 & Hl & Hq & _)];
    destruct (Hlk w' y' Hy') as [[-> ->]|(_ & y0' & Hy0' & Hl' & Hq' & _)]; auto; simpl in Hll, Hqq |- *.
    + exfalso. rewrite Hl' in Hll. rewrite Hq' in Hqq.
      pose proof (i_max I mv x w' y0' Hx Hy0' ltac:(congruence) Hxs). lia.
    + exfalso. rewrite Hl in Hll. rewrite Hq in Hqq.
      pose proof (i_max I mv x w y0 Hx Hy0 ltac:(congruence) Hxs). lia.
    + rewrite Hl, Hl' in Hll. rewrite Hq, Hq' in Hqq.
      apply (i_seq I w y0 w' y0' Hy0 Hy0' Hll Hqq).
  - (* i_max *)
    intros w y w' y' Hy Hy' Hll Hs.
    destruct (Hlk w y Hy) as [[-> ->]|(_ & y0 & Hy0 & Hl & Hq & _ & Hcase)];
    destruct (Hlk w' y' Hy') as [[-> ->]|(_ & y0' & Hy0' & Hl' & Hq' & _)]; auto; simpl in Hll, Hs |- *.
    + rewrite Hl' in Hll. rewrite Hq'.
      pose proof (i_max I mv x w' y0' Hx Hy0' ltac:(congruence) Hxs). lia.
    + exfalso. destruct Hcase as [(-> & -> & ->)|[Hnmv ->]]; [discriminate|].
      apply Hnmv. apply (cur_unique I Hy0 Hx); auto. congruence.
    + destruct Hcase as [(-> & -> & ->)|[Hnmv ->]]; [discriminate|].
      rewrite Hl' in Hll. rewrite Hq'. apply (i_max I w y0 w' y0' Hy0 Hy0' Hll Hs).
  - (* i_chsup *)
    intros w y u Hy Hc.
    destruct (Hlk w y Hy) as [[-> ->]|(_ & y0 & Hy0 & _ & _ & _ & [(-> & -> & ->)|[_ ->]])]; auto.
    + discriminate.
    + apply (i_chsup I w y0 u Hy0 Hc).
  - (* i_super *)
    intros w y Hy Hs.
    destruct (Hlk w y Hy) as [[-> ->]|(_ & y0 & Hy0 & _ & _ & _ & [(-> & -> & ->)|[Hnmv ->]])].
    + discriminate.
    + simpl. unfold chained. destruct (bool_decide (2 < v_refs x)) eqn:E.
      * left. exists v', xnew. simpl. auto.
      * right. apply bool_decide_eq_false in E. repeat split; auto; lia.
    + destruct (i_super I w y0 Hy0 Hs) as [(u & x0 & Hc & Hx0 & Hl0 & Hq0)|(_ & _ & ? & _)]; [|lia].
      left. destruct (Hlv u x0 Hx0) as (x1 & Hx1 & Hl1 & Hq1 & _). exists u, x1.
      rewrite Hl1, Hq1. auto.
  - (* i_curU *)
    intros w y n Hy Hs Hn. rewrite setm_lookup.
    destruct (Hlk w y Hy) as [[-> ->]|(_ & y0 & Hy0 & _ & _ & _ & [(-> & -> & ->)|[Hnmv ->]])].
    + simpl in Hn. destruct (HA n Hn) as [Hnr HU]. rewrite decide_False by auto. auto.
    + discriminate.
    + assert (v_lin y0 <> l) as Hnl.
      { intros Hl. apply Hnmv. apply (cur_unique I Hy0 Hx); auto. congruence. }
      destruct (decide (n ∈ rm)) as [Hin|Hin].
      * exfalso. destruct (Hinx n w y0 Hy0 Hn (Hrm n Hin)) as (_ & ? & _). auto.
      * destruct (i_curU I w y0 n Hy0 Hs Hn) as [?|(? & m0 & Hm0 & ?)]; auto.
        right. split; auto. exists m0. rewrite lookup_delete_ne by auto. auto.
  - (* i_handle *)
    intros g gd u Hg Hgr. apply lookup_insert_Some in Hg as [[<- <-]|[Hng Hg]].
    + simpl in Hgr. inversion Hgr; subst u. exists xnew. auto.
    + destruct (i_handle I g gd u Hg Hgr) as (x0 & Hx0 & Hl0 & Hs0).
      destruct (Hlv u x0 Hx0) as (x1 & Hx1 & Hl1 & _ & Hsame). exists x1. split_and!; [done|congruence|].
      (* no other writable handle of the lineage points to the old version *)
      intros Hgro. rewrite Hsame; auto. intros ->. apply Hng. symmetry.
      eapply (i_wruniq I g gd mh hd); eauto. congruence.
  - (* i_wruniq *)
    intros h1 hd1 h2 hd2 H1 H2 Hro1 Hro2 Ho1 Ho2 Hll.
    apply lookup_insert_Some in H1 as [[<- <-]|[Hn1 H1]];
    apply lookup_insert_Some in H2 as [[<- <-]|[Hn2 H2]]; auto; simpl in Hll.
    + apply (i_wruniq I mh hd h2 hd2 Hh H2 Hro Hro2); auto.
    + apply (i_wruniq I h1 hd1 mh hd H1 Hh Hro1 Hro); auto.
    + apply (i_wruniq I h1 hd1 h2 hd2 H1 H2 Hro1 Hro2 Ho1 Ho2 Hll).
  - (* i_pin *)
    intros u p Hp. destruct (i_pin I u p Hp) as [x0 Hx0].
    destruct (Hlv u x0 Hx0) as (x1 & Hx1 & _). eauto.
  - (* i_mut *)
    intros l0 m0 Hm0. apply lookup_delete_Some in Hm0 as [Hnl Hm0].
    destruct (i_mut I l0 m0 Hm0) as (hd0 & x0 & Hh0 & Hl0 & ? & ? & Hx0).
    destruct (Hlv _ x0 Hx0) as (x1 & Hx1 & _). exists hd0, x1.
    rewrite lookup_insert_ne; auto. intros Heq. rewrite <- Heq in Hh0. congruence.
  - (* i_fresh *)
    intros l0 m0 n Hm0 Hn. apply lookup_delete_Some in Hm0 as [Hnl Hm0].
    destruct (i_fresh I l0 m0 n Hm0 Hn) as [Hk Hc].
    assert (Hnot : n ∉ v_tree x ∪ m_fresh m).
    { intros Hin. apply elem_of_union in Hin as [Hin|Hin]; [eapply Hc; eauto|].
      apply Hnl. eapply (i_frdisj I); eauto. }
    split.
    + rewrite setm_lookup. rewrite decide_False; auto.
    + intros w y Hy Hny.
      destruct (Hlk w y Hy) as [[-> ->]|(_ & y0 & Hy0 & _ & _ & Ht & _)].
      * simpl in Hny. auto.
      * rewrite Ht in Hny. eapply Hc; eauto.
  - (* i_frdisj *)
    intros l1 m1 l2 m2 n H1 H2. apply lookup_delete_Some in H1 as [_ H1].
    apply lookup_delete_Some in H2 as [_ H2]. apply (i_frdisj I l1 m1 l2 m2 n H1 H2).
  - (* i_refs *)
    intros u y Hy. unfold vs1.
    pose proof (holders_cas s mh hd mv x l m v' xnew xold (Hd (h_lin hd) (Some v') false)
                  (setm rm (M v') (marks s)) Hh Hr Hx Hxc Hm eq_refl Hv' Hne eq_refl eq_refl u) as E.
    destruct (Hlk u y Hy) as [[-> ->]|(Hnu & y0 & Hy0 & _ & _ & _ & Hcase)].
    + unfold exc. rewrite E, H0, decide_True by done. simpl.
      destruct chained; simpl; [by rewrite decide_True|by rewrite Hxc].
    + assert (v_refs y = v_refs y0) as -> by (destruct Hcase as [(_ & -> & ->)|[_ ->]]; done).
      rewrite (i_refs I u y0 Hy0). unfold exc. rewrite E, (decide_False (P:=u = v')) by done.
      destruct chained; simpl; rewrite ?Hxc, ?(decide_False (P:=Some v' = Some u)) by congruence;
        simpl; clear; case_decide; lia.
Qed.

Lemma Inv0 s v w : Inv s v 0 -> Inv s w 0.
Proof. intros I. eapply Inv_irrel; eauto. Qed.

(* rootAddRef: one more reference, in hand *)
Lemma addref_inv s v x : Inv s v 0 -> vers s !! v = Some x ->
  let x' := with_refs x (S (v_refs x)) in
  Inv (upd_ver s v x') v 1 /\ vers (upd_ver s v x') !! v = Some x' /\
  (v_super x' = true -> v_chain x' <> None).
Proof.
  intros I Hx. split_and!; [eapply refs_inv; eauto; lia|apply lookup_insert|apply (Inv_chained I Hx)].
Qed.

(* only the mutation of a handle's own lineage can be using it *)
Lemma mut_handle_ne {s ev k h hd} : Inv s ev k -> handles s !! h = Some hd ->
  (forall m, muts s !! (h_lin hd) = Some m -> m_handle m <> h) ->
  forall l m, muts s !! l = Some m -> m_handle m <> h.
Proof.
  intros I Hh Hn l m Hm Heq. destruct (i_mut I l m Hm) as (hd0 & _ & Hh0 & Hl0 & _).
  rewrite Heq in Hh0. simplify_eq. by apply (Hn m).
Qed.

Theorem step_inv s s' : step s s' -> (forall v, Inv s v 0) -> forall v, Inv s' v 0.
Proof.
  intros Hst I0 v0.
  destruct Hst as
    [s h l v Hh Hv Hlv Hlh
    |s h hd v x Hh Hrt Hx
    |s v p s' Hp Hd
    |s p c Hc Hp
    |s v x c Hc Hx Hemp
    |s h hd v x h' Hh Hrt Hx Hh'
    |s h hd v h' Hh Hro Hrt Hh' Hm
    |s h hd v s' Hh Hrt Hm Hd
    |s h hd v x Hh Hro Hrt Hx Hm
    |s l m x new mkd Hm Hx Hnew Hmkd HmkdU
    |s l m x s' Hm Hx Hd
    |s l m hd x v' tr' lat' rm s1 s2 Hm Hh Hrt Hx Hv' Htr HtrU Hrm Hrmk Hlat chained xnew xold Hs1 Hd].
  - (* new *) apply (Inv0 _ v).
    pose proof (addver_inv s l v (I0 v) Hv Hlv) as I1.
    eapply (open_inv _ h l v false _ 0 I1); simpl; [done|apply lookup_insert|done| |done].
    intros _. split; auto. intros g y Hg _ _. eauto.
  - (* pin *) apply (Inv0 _ v).
    destruct (addref_inv s v x (I0 v) Hx) as (I1 & Hx' & Hch).
    apply (pins_inv _ v _ _ 1 0 I1 Hx' Hch). unfold pin_count. simpl. lia.
  - (* unpin *) apply (Inv0 _ v). pose proof (I0 v) as I.
    destruct (i_pin I v p Hp) as [x Hx]. eapply decref_inv; eauto.
    assert (pin_count s v = S p) as Hpc by (unfold pin_count; by rewrite Hp).
    apply (pins_inv _ v x p 0 1 I Hx); [|lia].
    apply (held_chained I); auto. unfold holders. lia.
  - (* load *)
    pose proof (alloc_not_tree (I0 v0) Hc) as Hct.
    apply grow_inv; auto.
    + intros w y' (y & <- & Hy)%lookup_fmap_Some. exists y.
      case_decide; [exists (v_tree y ∪ {[c]})|exists (v_tree y)]; split_and!; auto. by destruct y.
    + intros w y Hy. rewrite lookup_fmap, Hy. simpl. eauto.
    + intros w1 y1 w2 y2 (y10 & <- & Hy1)%lookup_fmap_Some (y20 & <- & Hy2)%lookup_fmap_Some.
      repeat case_decide; intros Hc1 Hc2;
        try (by destruct (Hct _ _ Hy1 Hc1)); try (by destruct (Hct _ _ Hy2 Hc2)).
      simpl. eapply (i_lin (I0 v0)); eauto.
    + intros u. apply cnt_fmap. intros y. by case_decide.
  - (* loadroot *)
    pose proof (alloc_not_tree (I0 v0) Hc) as Hct.
    apply grow_inv; auto.
    + intros w y' [[<- <-]|[_ Hy']]%lookup_insert_Some.
      * exists x, {[c]}. split_and!; auto. right. by rewrite Hemp, (left_id_L ∅ (∪)).
      * exists y', (v_tree y'). split_and!; auto. by destruct y'.
    + intros w y Hy. destruct (decide (v = w)) as [->|]; simplify_map_eq; eauto.
    + intros w1 y1 w2 y2 [[<- <-]|[_ Hw1]]%lookup_insert_Some [[<- <-]|[_ Hw2]]%lookup_insert_Some Hc1 Hc2; auto.
      * destruct (Hct _ _ Hw2 Hc2).
      * destruct (Hct _ _ Hw1 Hc1).
      * destruct (Hct _ _ Hw1 Hc1).
    + intros u. by apply (cnt_insert_same _ _ _ x _ Hx).
  - (* snapshot *) apply (Inv0 _ v).
    destruct (addref_inv s v x (I0 v) Hx) as (I1 & Hx' & Hch).
    destruct (i_handle (I0 v) h hd v Hh Hrt) as (x0 & Hx0 & Hl0 & _). simplify_eq.
    apply (open_inv _ h' (h_lin hd) v true _ 0 I1 Hh' Hx' Hl0); [done|exact Hch].
  - (* share: close h, open h' *) apply (Inv0 _ v).
    pose proof (I0 v) as I.
    destruct (i_handle I h hd v Hh Hrt) as (x & Hx & Hl & Hs).
    assert (Inv (set_handle s h (Hd (h_lin hd) None false)) v 1) as I1.
    { eapply close_inv; eauto. apply (mut_handle_ne I Hh). intros m. by rewrite Hm. }
    assert (h <> h') as Hne by (intros ->; congruence).
    apply (open_inv _ h' (h_lin hd) v false x 0 I1); auto.
    + simpl. rewrite lookup_insert_ne; auto.
    + intros _. split; auto. simpl. intros g gd [[<- <-]|[Hng Hg]]%lookup_insert_Some Hgro Ho Hll.
      * by destruct Ho.
      * apply Hng. eapply (i_wruniq I h hd g gd); eauto.
    + eapply Inv_chained; eauto.
  - (* close *) apply (Inv0 _ v). eapply decref_inv; eauto.
    pose proof (I0 v) as I. eapply close_inv; eauto using mut_handle_ne.
  - (* mbegin *) apply (Inv0 _ v).
    destruct (addref_inv s v x (I0 v) Hx) as (I1 & Hx' & Hch).
    exact (mbegin_inv _ h hd v _ 0 I1 Hh Hro Hrt Hx' Hm Hch).
  - (* mbuild *) eapply mbuild_inv; eauto.
  - (* mabort *) apply (Inv0 _ (m_ver m)). eapply decref_inv; eauto.
    eapply abort_inv; eauto.
  - (* mcas: publication, then the two rootDecRef *)
    assert (Inv s1 (m_ver m) 2) as I1 by (subst s1; eapply cas_inv; eauto).
    destruct Hd as (s' & Hd1 & Hdead & Hlive).
    pose proof (decref_inv Hd1 1 I1) as I2.
    destruct (vers s' !! m_ver m) as [y|] eqn:E.
    + apply (Inv0 _ (m_ver m)). eapply decref_inv; [apply Hlive; congruence|exact I2].
    + assert (s2 = s') as -> by (apply Hdead; reflexivity). eapply Inv_irrel; eauto.
Qed.

Lemma init_inv v : Inv init v 0.
Proof.
  constructor; simpl; intros *; rewrite ?lookup_empty; try discriminate.
Qed.

Lemma reachable_inv s : reachable s -> forall v, Inv s v 0.
Proof.
  induction 1; [exact init_inv|]. eapply step_inv; eauto.
Qed.


(* no cell of a live version's tree is on the free list (or unallocated) *)
Theorem proto_safe : forall s, reachable s -> forall v x n,
  vers s !! v = Some x -> n ∈ v_tree x -> exists k, marks s !! n = Some k /\ k <> F.
Proof.
  intros s Hr v. apply (i_safe (reachable_inv s Hr v)).
Qed.

(* a live version's tree only grows, by lazy loads of allocatable cells *)
Theorem tree_stable : forall s s', reachable s -> step s s' -> forall v x x',
  vers s !! v = Some x -> vers s' !! v = Some x' ->
  v_tree x ⊆ v_tree x' /\
  (forall n, n ∈ v_tree x' -> n ∉ v_tree x -> marks s' !! n = Some U /\ allocatable s n).
Proof.
  intros s s' _ Hst v x x' Hx Hx'.
  assert (Hsame : v_tree x' = v_tree x ->
     v_tree x ⊆ v_tree x' /\
     (forall n, n ∈ v_tree x' -> n ∉ v_tree x -> marks s' !! n = Some U /\ allocatable s n)).
  { intros ->. split; auto. intros n ? ?. contradiction. }
  (* v, while it lives, keeps the tree it has in s *)
  pose (R := fun s0 : state => forall y, vers s0 !! v = Some y -> v_tree y = v_tree x).
  assert (HR : R s) by (intros y Hy; congruence).
  assert (Hdec : forall s0 u s1, decref s0 u s1 -> R s0 -> R s1).
  { intros s0 u s1 Hd H0 y' Hy'. destruct (decref_vers Hd v y' Hy') as (y & Hy & Hs).
    rewrite Hs. exact (H0 y Hy). }
  destruct Hst as
    [s h l w Hh Hw Hlv Hlh
    |s h hd w y Hh Hrt Hy
    |s w p s' Hp Hd
    |s p c Hc Hp
    |s w y c Hc Hy Hemp
    |s h hd w y h' Hh Hrt Hy Hh'
    |s h hd w h' Hh Hro Hrt Hh' Hm
    |s h hd w s' Hh Hrt Hm Hd
    |s h hd w y Hh Hro Hrt Hy Hm
    |s l m y new mkd Hm Hy Hnew Hmkd HmkdU
    |s l m y s' Hm Hy Hd
    |s l m hd y v' tr' lat' rm s1 s2 Hm Hh Hrt Hy Hv' Htr HtrU Hrm Hrmk Hlat chained xnew xold Hs1 Hd];
    simpl in *.
  - (* new *) apply Hsame. rewrite lookup_insert_ne in Hx' by congruence. congruence.
  - (* pin *) apply Hsame. apply lookup_insert_Some in Hx' as [[<- <-]|[_ Hx']]; simpl; congruence.
  - (* unpin *) exact (Hsame (Hdec _ _ _ Hd HR x' Hx')).
  - (* load *) rewrite lookup_fmap, Hx in Hx'. simpl in Hx'. inversion Hx'; subst x'. clear Hx'.
    destruct (decide (p ∈ v_tree x)); simpl.
    + split; [apply union_subseteq_l|]. intros n0 [?|Hn%elem_of_singleton]%elem_of_union ?; [done|subst n0].
      rewrite lookup_insert. auto.
    + split; auto. intros n0 ? ?. contradiction.
  - (* loadroot *) apply lookup_insert_Some in Hx' as [[<- <-]|[_ Hx']]; simpl.
    + assert (x = y) as <- by congruence. split; [rewrite Hemp; apply empty_subseteq|].
      intros n Hn%elem_of_singleton _. subst n. rewrite lookup_insert. auto.
    + apply Hsame. congruence.
  - (* snapshot *) apply Hsame. apply lookup_insert_Some in Hx' as [[<- <-]|[_ Hx']]; simpl; congruence.
  - (* share *) apply Hsame. congruence.
  - (* close *) exact (Hsame (Hdec _ _ _ Hd HR x' Hx')).
  - (* mbegin *) apply Hsame. apply lookup_insert_Some in Hx' as [[<- <-]|[_ Hx']]; simpl; congruence.
  - (* mbuild *) apply Hsame. congruence.
  - (* mabort *) exact (Hsame (Hdec _ _ _ Hd HR x' Hx')).
  - (* mcas *) apply Hsame.
    assert (R s1) as R1.
    { subst s1. intros z Hz. simpl in Hz. rewrite lookup_insert_ne in Hz by congruence.
      apply lookup_insert_Some in Hz as [[<- <-]|[_ Hz]]; simpl; congruence. }
    destruct Hd as (s' & Hd1 & Hdead & Hlive). pose proof (Hdec _ _ _ Hd1 R1) as R2.
    destruct (vers s' !! m_ver m) eqn:E.
    + apply (Hdec _ _ _ (Hlive ltac:(congruence)) R2), Hx'.
    + rewrite (Hdead eq_refl) in Hx'. exact (R2 x' Hx').
Qed.

Theorem pinned_live : forall s, reachable s -> forall v p,
  pins s !! v = Some (S p) -> is_Some (vers s !! v).
Proof. intros s Hr v p. apply (i_pin (reachable_inv s Hr v)). Qed.

Theorem handle_live : forall s, reachable s -> forall h hd v,
  handles s !! h = Some hd -> h_root hd = Some v -> is_Some (vers s !! v).
Proof.
  intros s Hr h hd v Hh Hro.
  destruct (i_handle (reachable_inv s Hr v) h hd v Hh Hro) as (x & Hx & _). eauto.
Qed.

Theorem mut_live : forall s, reachable s -> forall l m,
  muts s !! l = Some m -> is_Some (vers s !! (m_ver m)).
Proof.
  intros s Hr l m Hm.
  destruct (i_mut (reachable_inv s Hr l) l m Hm) as (? & x & _ & _ & _ & _ & Hx). eauto.
Qed.

(* exact reference accounting: open handles + reader pins + chain references of live
      predecessors + mutations in flight *)
Theorem refs_accounting : forall s, reachable s -> forall v x, vers s !! v = Some x ->
  v_refs x = cnt (fun hd => h_root hd = Some v) (handles s) + pin_count s v +
             cnt (fun y => v_chain y = Some v) (vers s) + cnt (fun m => m_ver m = v) (muts s).
Proof.
  intros s Hr v x Hx. rewrite (i_refs (reachable_inv s Hr v) v x Hx).
  unfold holders, exc. destruct (decide (v = v)); lia.
Qed.

Corollary refs_positive : forall s, reachable s -> forall v x, vers s !! v = Some x ->
  (forall h hd, handles s !! h = Some hd -> h_root hd = Some v -> 1 <= v_refs x) /\
  (pin_count s v <= v_refs x) /\
  (forall w y, vers s !! w = Some y -> v_chain y = Some v -> 1 <= v_refs x) /\
  (forall l m, muts s !! l = Some m -> m_ver m = v -> 1 <= v_refs x).
Proof.
  intros s Hr v x Hx. rewrite (refs_accounting s Hr v x Hx). repeat split.
  - intros h hd Hh Hro. pose proof (cnt_pos (fun hd => h_root hd = Some v) Hh Hro). lia.
  - lia.
  - intros w y Hy Hc. pose proof (cnt_pos (fun y => v_chain y = Some v) Hy Hc). lia.
  - intros l m Hm Hv. pose proof (cnt_pos (fun m => m_ver m = v) Hm Hv). lia.
Qed.

(* rootCAS succeeds: the mutating handle still points at the version the mutation pinned *)
Theorem cas_enabled : forall s, reachable s -> forall l m, muts s !! l = Some m ->
  exists hd, handles s !! (m_handle m) = Some hd /\ h_root hd = Some (m_ver m) /\
             h_lin hd = l /\ h_ro hd = false.
Proof.
  intros s Hr l m Hm.
  destruct (i_mut (reachable_inv s Hr l) l m Hm) as (hd & _ & ? & ? & ? & ? & _). eauto.
Qed.

(* rootCAS's panic "chain already taken" (collection.go:819) is unreachable *)
Theorem chain_free_at_cas : forall s, reachable s -> forall l m x hd,
  muts s !! l = Some m -> vers s !! (m_ver m) = Some x ->
  handles s !! (m_handle m) = Some hd -> h_root hd = Some (m_ver m) ->
  v_super x = false /\ v_chain x = None.
Proof.
  intros s Hr l m x hd Hm Hx _ _. pose proof (reachable_inv s Hr l) as I.
  destruct (mut_facts I Hm Hx) as (_ & _ & _ & _ & _ & _ & Hs).
  eauto using unsuper_unchained.
Qed.

(* the cells freed by any rootDecRef are not already on the free list *)
Theorem no_double_free : forall s v x n, freeable s v x n -> marks s !! n <> Some F.
Proof. intros s v x n [_ [H|(_ & _ & H)]]; congruence. Qed.

(* after a failed mutation no cell of the version's tree still carries its mark (C07) *)
Theorem marks_restored : forall s s' l m x, reachable s ->
  muts s !! l = Some m -> vers s !! (m_ver m) = Some x ->
  decref (set_mut (set_marks s
            (setm (filter (fun n => marks s !! n = Some (M (m_ver m))) (v_tree x)) U (marks s)))
            l None) (m_ver m) s' ->
  forall x', vers s' !! (m_ver m) = Some x' ->
  forall n, n ∈ v_tree x' -> marks s' !! n <> Some (M (m_ver m)).
Proof.
  intros s s' l m x _ Hm Hx Hd x' Hx' n Hn Hk.
  destruct (decref_vers Hd _ x' Hx') as (y & Hy & Hs). simpl in Hy.
  assert (y = x) as -> by congruence. rewrite Hs in Hn.
  destruct (decref_marks Hd n _ Hk) as [?|Hk0]; [discriminate|]. simpl in Hk0.
  rewrite setm_lookup in Hk0.
  destruct (decide (n ∈ filter (fun n => marks s !! n = Some (M (m_ver m))) (v_tree x))) as [|Hnot];
    [discriminate|].
  apply Hnot. apply elem_of_filter. auto.
Qed.

Theorem current_tree_unmarked : forall s, reachable s -> forall h hd v x,
  handles s !! h = Some hd -> h_ro hd = false -> h_root hd = Some v ->
  muts s !! (h_lin hd) = None -> vers s !! v = Some x ->
  forall n, n ∈ v_tree x -> marks s !! n = Some U.
Proof.
  intros s Hr h hd v x Hh Hro Hrt Hm Hx n Hn. pose proof (reachable_inv s Hr v) as I.
  destruct (i_handle I h hd v Hh Hrt) as (x' & Hx' & Hl & Hs).
  assert (x' = x) as -> by congruence.
  destruct (i_curU I v x n Hx (Hs Hro) Hn) as [?|(_ & m0 & Hm0 & _)]; auto.
  rewrite Hl in Hm0. congruence.
Qed.

(* every live superseded version keeps its successor alive *)
Theorem superseded_chained : forall s, reachable s -> forall v x,
  vers s !! v = Some x -> v_super x = true ->
  exists w, v_chain x = Some w /\ is_Some (vers s !! w).
Proof.
  intros s Hr v x Hx Hs.
  destruct (i_super (reachable_inv s Hr v) v x Hx Hs) as [(w & y & ? & ? & _)|(_ & _ & ? & _)];
    [eauto|lia].
Qed.

Corollary superseded_chained' : forall s, reachable s -> forall v x,
  vers s !! v = Some x -> v_super x = true ->
  (forall m, muts s !! (v_lin x) = Some m -> m_ver m <> v) ->
  exists w, v_chain x = Some w /\ is_Some (vers s !! w).
Proof. intros s Hr v x Hx Hs _. eapply superseded_chained; eauto. Qed.

Print Assumptions proto_safe.
Print Assumptions tree_stable.
Print Assumptions pinned_live.
Print Assumptions handle_live.
Print Assumptions mut_live.
Print Assumptions refs_accounting.
Print Assumptions refs_positive.
Print Assumptions cas_enabled.
Print Assumptions chain_free_at_cas.
Print Assumptions no_double_free.
Print Assumptions marks_restored.
Print Assumptions current_tree_unmarked.
Print Assumptions superseded_chained.

(* non-vacuity: a reachable run in which a cell is freed by the release of a superseded
   version and then REUSED by a lazy load into the tree of the new version *)
Local Notation "1" := (1%positive). Local Notation "2" := (2%positive).

Example reuse_reachable :
  exists s s', reachable s /\ marks s !! 1 = Some F /\ step s s' /\
     marks s' !! 1 = Some U /\ exists v x, vers s' !! v = Some x /\ 1 ∈ v_tree x.
Proof.
  pose (x0 := Ver 1 0%nat ∅ ∅ 1%nat None false).
  pose (hd := Hd 1 (Some 1) false).
  pose (s1 := St (marks init) (<[1 := x0]> (vers init)) (<[1 := hd]> (handles init)) (pins init) (muts init)).
  assert (reachable s1) as R1.
  { eapply r_step; [apply r_init|]. apply (s_new init 1 1 1); simpl; intros *;
      rewrite ?lookup_empty; try discriminate; auto. }
  pose (x1 := Ver 1 0%nat {[1]} ∅ 1%nat None false).
  pose (s2 := St (<[1 := U]> (marks s1)) (<[1 := x1]> (vers s1)) (handles s1) (pins s1) (muts s1)).
  assert (reachable s2) as R2.
  { eapply r_step; [exact R1|]. apply (s_loadroot s1 1 x0 1); auto. left. reflexivity. }
  pose (x2 := with_refs x1 2%nat).
  pose (s3 := set_mut (upd_ver s2 1 x2) 1 (Some (Mut 1 1 ∅))).
  assert (reachable s3) as R3.
  { eapply r_step; [exact R2|]. apply (s_mbegin s2 1 hd 1 x1); reflexivity. }
  pose (m4 := Mut 1 1 (∅ ∪ {[2]})).
  pose (s4 := set_mut (set_marks s3 (setm {[1]} (M 1) (setm {[2]} U (marks s3)))) 1 (Some m4)).
  assert (reachable s4) as R4.
  { eapply r_step; [exact R3|]. apply (s_mbuild s3 1 (Mut 1 1 ∅) x2 {[2]} {[1]}); try reflexivity.
    - intros n Hn. apply elem_of_singleton in Hn as ->. left. reflexivity.
    - apply union_subseteq_l', union_subseteq_l.
    - intros n Hn _. apply elem_of_singleton in Hn as ->. reflexivity. }
  pose (xnew := Ver 1 1%nat {[2]} ∅ 1%nat None false).
  pose (xold := Ver 1 0%nat {[1]} ∅ 2%nat None true).
  pose (s5 := St (setm ∅ (M 2) (marks s4)) (<[2 := xnew]> (<[1 := xold]> (vers s4)))
                 (<[1 := Hd 1 (Some 2) false]> (handles s4)) (pins s4) (delete 1 (muts s4))).
  pose (s6 := upd_ver s5 1 (with_refs xold 1%nat)).
  pose (s7 := St (setm {[1]} F (marks s6)) (delete 1 (vers s6)) (handles s6) (pins s6) (muts s6)).
  assert (reachable s7) as R7.
  { eapply r_step; [exact R4|].
    apply (s_mcas s4 1 m4 hd x2 2 {[2]} ∅ ∅ s5 s7); try reflexivity.
    - apply union_subseteq_r', union_subseteq_r.
    - intros n Hn. apply elem_of_singleton in Hn as ->. reflexivity.
    - apply empty_subseteq.
    - intros n Hn. by apply elem_of_empty in Hn.
    - exists s6. split; [|split].
      + apply (decref_live s5 1 xold 0%nat); reflexivity.
      + intros Hc. exfalso. revert Hc. vm_compute. discriminate.
      + intros _. apply (decref_die_nochain s6 1 (with_refs xold 1%nat) {[1]}); try reflexivity.
        intros n Hn. apply elem_of_singleton in Hn as ->. split; [simpl; apply elem_of_union_l; by apply elem_of_singleton_2|].
        left. reflexivity. }
  exists s7. eexists. split; [exact R7|]. split; [reflexivity|]. split.
  - apply (s_load s7 2 1); [right; reflexivity|]. exists 2, xnew. split; [reflexivity|]. simpl. by apply elem_of_singleton_2.
  - split; [reflexivity|]. exists 2. eexists. split; [reflexivity|]. simpl. apply elem_of_union_r. by apply elem_of_singleton_2.
Qed.
Print Assumptions reuse_reachable.
