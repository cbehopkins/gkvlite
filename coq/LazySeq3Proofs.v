(* LazySeq3Proofs.v — proofs about LazySeq3.v: runs with Store.Flush inside.
   The run model's Flush is DStore's Flush on bytes; a Flush reads nothing and keeps the memory; the invariant of a run;
   key-only runs never read a byte of a value; a Flush is invisible to the call that follows it (the run after the Flush
   simulates the run without it: tsim on touches, msim on memories). *)
From GK Require Import Base Treap TreapSpec Store Codec CodecProofs Disk DiskProofs Lazy LazyProofs LazyVisit LazyMut LazyMutProofs
  LazySeq LazySeqProofs LazySeq2 LazySeq2Proofs DStoreRefine LazySeq3.
From Coq Require Import Lia ZArith NArith List Bool.
Import ListNotations.
Open Scope Z_scope.

Lemma write_trees_is_write_colls : forall (cs : colls) f size,
  write_trees f size (tmap cs) =
  let '(f', s', cs') := write_colls f size cs in (f', s', tmap cs').
Proof.
  induction cs as [|[n c] cs IH]; intros f size.
  - reflexivity.
  - cbn [tmap map fst snd write_trees write_colls].
    destruct (write_tree f size (c_tree c)) as [[f1 s1] t'].
    fold (tmap cs). rewrite IH.
    destruct (write_colls f1 s1 cs) as [[f2 s2] cs2].
    reflexivity.
Qed.

Lemma tree_root_map_tmap (cs : colls) : tree_root_map (tmap cs) = root_map cs.
Proof. unfold tree_root_map, root_map, tmap. rewrite map_map. reflexivity. Qed.

Theorem flush_trees_is_flush_bytes : forall f size (cs : colls),
  flush_trees f size (tmap cs) =
  let '(f', s', cs') := flush_bytes f size cs in (f', s', tmap cs').
Proof.
  intros f size cs. unfold flush_trees, flush_bytes.
  rewrite write_trees_is_write_colls.
  destruct (write_colls f size cs) as [[f1 s1] cs1].
  rewrite tree_root_map_tmap. reflexivity.
Qed.
Print Assumptions flush_trees_is_flush_bytes.

Theorem flush_step_reads_nothing : forall cmp name s, fst (sstep3 cmp name s SFlush) = [].
Proof.
  intros cmp name s. unfold sstep3.
  destruct (flush_trees (ss_file s) (ss_size s) (ss_colls s)) as [[f' size'] cs']. reflexivity.
Qed.
Print Assumptions flush_step_reads_nothing.

Theorem flush_keeps_memory : forall cmp name s o,
  mem_find o (ss_mem s) <> None -> mem_find o (ss_mem (snd (sstep3 cmp name s SFlush))) <> None.
Proof.
  intros cmp name s o H. unfold sstep3.
  destruct (flush_trees (ss_file s) (ss_size s) (ss_colls s)) as [[f' size'] cs'].
  cbn [snd ss_mem]. rewrite mem_find_app. destruct (mem_find o (fresh_mems (ss_colls s) cs')); [discriminate|exact H].
Qed.
Print Assumptions flush_keeps_memory.

Definition set_okb (o : sop3) : bool :=
  match o with S2 (S1 (SSet k v prio)) => item_okb (mkItem k v prio) | _ => true end.

(* [tree_ok] (every stored aggregate below 2^64) is not preserved by SetItem (see [tree_ok_not_preserved] below); the
   invariant carries [aggs] (exact aggregates) instead, and a Flush is asked to happen with totals below 2^64 (the side
   condition (h3') of DStoreRefine), which gives [tree_ok] at the moment it is needed. *)
Definition tree_inv3 (f : file) (b : Z) (t : tree) : Prop :=
  rep f t /\ below t b /\ aggs t /\ items_ok t.

Definition inv3 (s : sst) : Prop :=
  0 <= ss_size s <= blen (ss_file s) /\
  Forall (fun nt => tree_inv3 (ss_file s) (ss_size s) (snd nt)) (ss_colls s).

Definition totals_ok3 (s : sst) (o : sop3) : Prop :=
  match o with
  | SFlush => Forall (fun nt => num (snd nt) < 2 ^ 64 /\ nby (snd nt) < 2 ^ 64) (ss_colls s)
  | _ => True
  end.

Definition step_tree (cmp : bytes -> bytes -> comparison) (t : tree) (o : sop2) : tree :=
  match o with
  | S1 (SSet k v prio) => match set_item cmp t k (Some v) prio with Some t' => t' | None => t end
  | S1 (SDel k) => fst (delete cmp t k)
  | _ => t
  end.

Definition key_only_op3 (o : sop3) : bool := match o with S2 o2 => key_only_op2 o2 | SFlush => true end.

Lemma step_tree_after2 cmp t o : step_tree cmp t o = after2 cmp t o.
Proof. destruct o as [[]| | |]; reflexivity. Qed.

Lemma sstep3_S2 cmp name s o t : cs_get name (ss_colls s) = Some t ->
  sstep3 cmp name s (S2 o) =
  (fst (vreads (ss_mem s) (touches2 cmp t o)),
   mkSst (ss_file s) (ss_size s) (cs_set name (step_tree cmp t o) (ss_colls s))
         (evict (snd (vreads (ss_mem s) (touches2 cmp t o))) (evicted2 cmp t o))).
Proof. intro Hg. cbn [sstep3]. rewrite Hg, sstep2_eq, (step_tree_after2 cmp t o). reflexivity. Qed.

Lemma sstep3_no_tree cmp name s o : cs_get name (ss_colls s) = None -> fst (sstep3 cmp name s o) = [].
Proof.
  intro Hg. destruct o as [o2|]; [|apply flush_step_reads_nothing].
  unfold sstep3. rewrite Hg. reflexivity.
Qed.

Lemma sstep3_S2_frame cmp name s o :
  ss_file (snd (sstep3 cmp name s (S2 o))) = ss_file s /\ ss_size (snd (sstep3 cmp name s (S2 o))) = ss_size s.
Proof.
  cbn [sstep3]. destruct (cs_get name (ss_colls s)); [destruct (sstep2 _ _ _ _) as [[rs t'] m']|]; split; reflexivity.
Qed.

Lemma srun3_cons cmp name s o r :
  srun3 cmp name s (o :: r) = fst (sstep3 cmp name s o) :: srun3 cmp name (snd (sstep3 cmp name s o)) r.
Proof. cbn [srun3]. destruct (sstep3 cmp name s o) as [rs s']. reflexivity. Qed.

Theorem sstep3_key_only : forall cmp name s o t,
  cs_get name (ss_colls s) = Some t -> key_only_op3 o = true ->
  Forall (vk false t) (fst (sstep3 cmp name s o)).
Proof.
  intros cmp name s o t Hg Hk. destruct o as [o2|].
  - rewrite (sstep3_S2 cmp name s o2 t Hg). cbn [fst key_only_op3] in *.
    pose proof (vreads_vk t _ _ (ss_mem s) (touches2_ok cmp t t o2 (locs_sub_self t))) as H.
    rewrite Hk in H. exact H.
  - rewrite flush_step_reads_nothing. constructor.
Qed.
Print Assumptions sstep3_key_only.

Lemma step_tree_cases cmp t o :
  step_tree cmp t o = t \/
  (exists new, (set_okb (S2 o) = true -> item_ok new) /\ step_tree cmp t o = insert cmp t new) \/
  (exists k, step_tree cmp t o = fst (delete cmp t k)).
Proof.
  destruct o as [[k wv|wv|wv|k v prio|k]| | |]; cbn [step_tree]; auto.
  - destruct (valid_item k (Some v) prio) eqn:V.
    + rewrite (set_item_spec cmp t k v prio V). right. left. exists (mkItem k v prio).
      split; [exact (item_okb_ok _)|reflexivity].
    + rewrite (set_item_invalid cmp t k (Some v) prio V). auto.
  - right. right. exists k. reflexivity.
Qed.

Lemma step_tree_parts cmp P Q t o : parts_closed P Q -> (forall it, item_ok it -> Q None it) ->
  set_okb (S2 o) = true -> P t -> P (step_tree cmp t o).
Proof.
  intros HP HQ Hok Ht. destruct (step_tree_cases cmp t o) as [->|[(new & Hn & ->)|(k & ->)]]; [exact Ht| |].
  - apply (insert_parts cmp P Q HP); auto.
  - apply (delete_parts cmp P Q HP). exact Ht.
Qed.

Lemma step_tree_inv3 cmp f b t o :
  set_okb (S2 o) = true -> tree_inv3 f b t -> tree_inv3 f b (step_tree cmp t o).
Proof.
  intros Hok (H1 & H2 & H3 & H4).
  destruct (step_tree_parts cmp _ _ t o (parts_and _ _ _ _ (tree_parts f b) aggs_parts)) as ((G1 & G2 & G4) & G3); auto.
  - intros it Hi. split; [|exact I]. split; [intros q Hq; discriminate|]. split; [exact I|exact Hi].
  - repeat split; assumption.
Qed.

Lemma cs_get_Forall (P : tree -> Prop) name : forall cs t,
  Forall (fun nt => P (snd nt)) cs -> cs_get name cs = Some t -> P t.
Proof.
  induction cs as [|[n t0] cs IH]; intros t HF Hg; [discriminate|].
  inversion HF as [|? ? Hx Hr]; subst. cbn [cs_get] in Hg.
  destruct (cmp_bytes name n); [inversion Hg; subst; exact Hx| |]; apply IH; assumption.
Qed.

Lemma cs_set_Forall (P : tree -> Prop) name t' : forall cs,
  Forall (fun nt => P (snd nt)) cs -> P t' -> Forall (fun nt => P (snd nt)) (cs_set name t' cs).
Proof.
  induction cs as [|[n t0] cs IH]; intros HF Ht; [constructor|].
  inversion HF as [|? ? Hx Hr]; subst. cbn [cs_set].
  destruct (cmp_bytes name n); constructor; auto.
Qed.

Lemma inv3_get name s t : inv3 s -> cs_get name (ss_colls s) = Some t -> tree_inv3 (ss_file s) (ss_size s) t.
Proof. intros [_ Hinv] Hg. exact (cs_get_Forall (tree_inv3 (ss_file s) (ss_size s)) name _ _ Hinv Hg). Qed.

Lemma sstep3_S2_colls (P : tree -> Prop) cmp name s o :
  Forall (fun nt => P (snd nt)) (ss_colls s) ->
  (forall t, cs_get name (ss_colls s) = Some t -> P t -> P (step_tree cmp t o)) ->
  Forall (fun nt => P (snd nt)) (ss_colls (snd (sstep3 cmp name s (S2 o)))).
Proof.
  intros HF HP. destruct (cs_get name (ss_colls s)) as [t|] eqn:Hg.
  - rewrite (sstep3_S2 cmp name s o t Hg). cbn [snd ss_colls]. apply cs_set_Forall; [exact HF|].
    apply HP; [reflexivity|]. exact (cs_get_Forall P name _ _ HF Hg).
  - cbn [sstep3]. rewrite Hg. exact HF.
Qed.

Lemma write_trees_mono : forall cs f size f' s' cs',
  write_trees f size cs = (f', s', cs') -> size <= s'.
Proof.
  induction cs as [|[n t] cs IH]; intros f size f' s' cs' H; cbn [write_trees] in H.
  - inversion H. lia.
  - destruct (write_tree f size t) as [[f1 s1] t'] eqn:E1.
    destruct (write_trees f1 s1 cs) as [[f2 s2] cs2] eqn:E2.
    inversion H; subst. apply write_tree_mono in E1. apply IH in E2. lia.
Qed.

Lemma tree_inv3_stable f f' b b' t : tree_inv3 f b t -> agree f f' b -> b <= b' -> tree_inv3 f' b' t.
Proof.
  intros (H1 & H2 & H3 & H4) Ha Hb.
  split; [eapply rep_stable; eauto|]. split; [eapply below_mono; eauto|]. split; assumption.
Qed.

(* Flush of one tree: totals below 2^64 give [tree_ok], the new tree is the old one up to locations *)
Lemma write_tree_inv3 f size t f' s' t' :
  tree_inv3 f size t -> num t < 2 ^ 64 /\ nby t < 2 ^ 64 -> 0 <= size <= blen f ->
  write_tree f size t = (f', s', t') -> s' < two63 ->
  agree f f' size /\ size <= s' <= blen f' /\ tree_inv3 f' s' t'.
Proof.
  intros (I1 & I2 & I3 & I4) [T1 T2] Hsz E H63.
  destruct (write_tree_post _ _ _ _ _ _ I1 I2 Hsz (aggs_tree_ok t I3 I4 T1 T2) H63 E)
    as ((A1 & A2 & _) & (A4 & A5) & A6 & _).
  split; [exact A1|]. split; [exact A2|]. split; [exact A4|]. split; [exact A5|].
  split; [exact (erase_eq_aggs _ _ A6 I3)|]. unfold items_ok in *. rewrite (erase_eq_elems _ _ A6). exact I4.
Qed.

Lemma write_trees_inv : forall cs f size f' s' cs',
  Forall (fun nt => tree_inv3 f size (snd nt)) cs ->
  Forall (fun nt => num (snd nt) < 2 ^ 64 /\ nby (snd nt) < 2 ^ 64) cs -> 0 <= size <= blen f ->
  write_trees f size cs = (f', s', cs') -> s' < two63 ->
  agree f f' size /\ size <= s' <= blen f' /\ Forall (fun nt => tree_inv3 f' s' (snd nt)) cs'.
Proof.
  induction cs as [|[n t] cs IH]; intros f size f' s' cs' Hinv Htot Hsz H H63; cbn [write_trees] in H.
  - inversion H; subst. split; [apply agree_refl|]. split; [lia|constructor].
  - destruct (write_tree f size t) as [[f1 s1] t'] eqn:E1.
    destruct (write_trees f1 s1 cs) as [[f2 s2] cs2] eqn:E2.
    inversion H; subst; clear H.
    inversion Hinv as [|? ? Ht Hcs]; subst. inversion Htot as [|? ? Tt Tcs]; subst. cbn [snd] in *.
    pose proof (write_trees_mono _ _ _ _ _ _ E2) as Hm2.
    destruct (write_tree_inv3 _ _ _ _ _ _ Ht Tt Hsz E1 ltac:(lia)) as (A1 & A2 & A3).
    assert (Hcs' : Forall (fun nt => tree_inv3 f1 s1 (snd nt)) cs).
    { eapply Forall_impl; [|exact Hcs]. intros nt Hnt. eapply tree_inv3_stable; [exact Hnt|exact A1|lia]. }
    destruct (IH _ _ _ _ _ Hcs' Tcs ltac:(lia) E2 H63) as (B1 & B2 & B3).
    split; [eapply agree_trans; eauto; lia|]. split; [lia|].
    constructor; [|exact B3]. cbn [snd]. eapply tree_inv3_stable; [exact A3|exact B1|lia].
Qed.

Theorem sstep3_inv : forall cmp name s o,
  inv3 s -> set_okb o = true -> totals_ok3 s o -> ss_size (snd (sstep3 cmp name s o)) < two63 ->
  inv3 (snd (sstep3 cmp name s o)).
Proof.
  intros cmp name s o [Hsz Hinv] Hok Htot H63. destruct o as [o2|].
  - destruct (sstep3_S2_frame cmp name s o2) as [Ef Es]. unfold inv3. rewrite Ef, Es. split; [exact Hsz|].
    apply sstep3_S2_colls; [exact Hinv|]. intros t _. apply step_tree_inv3. exact Hok.
  - unfold sstep3, flush_trees in *. cbn [totals_ok3] in Htot.
    destruct (write_trees (ss_file s) (ss_size s) (ss_colls s)) as [[f1 s1] cs1] eqn:E.
    cbn [snd ss_file ss_size ss_colls] in *.
    pose proof (blen_nonneg (enc_root (tree_root_map cs1) s1)) as Hr.
    destruct (write_trees_inv _ _ _ _ _ _ Hinv Htot Hsz E ltac:(lia)) as (B1 & B2 & B3).
    destruct (append_facts f1 s1 (enc_root (tree_root_map cs1) s1) ltac:(lia)) as (W1 & W2 & _).
    unfold inv3; cbn [ss_file ss_size ss_colls]. split; [lia|].
    eapply Forall_impl; [|exact B3]. intros nt Hnt. eapply tree_inv3_stable; [exact Hnt|exact W1|lia].
Qed.
Print Assumptions sstep3_inv.

(* why [tree_ok] itself cannot be the invariant: a node whose stored count is 2^64 - 1 *)
Example tree_ok_not_preserved :
  let t := T None E None (mkItem [97%N] [1%N] 3) (2 ^ 64 - 1) 2 E in
  tree_ok t /\ item_okb (mkItem [98%N] [1%N] 5) = true /\
  ~ tree_ok (step_tree cmp_bytes t (S1 (SSet [98%N] [1%N] 5))).
Proof.
  cbv zeta. split; [|split].
  - cbn [tree_ok]. split; [apply item_okb_ok; vm_compute; reflexivity|]. repeat split; lia.
  - vm_compute. reflexivity.
  - vm_compute. intros (_ & (_ & H) & _). discriminate H.
Qed.
Print Assumptions tree_ok_not_preserved.

(* records_disjoint is preserved by SetItem / Delete (the records of the result are, as a multiset, among those of the
   argument) and by Flush (LazyProofs.L3_write_tree) *)

Lemma ploc_eq_dec (a b : ploc) : {a = b} + {a <> b}.
Proof. decide equality; apply Z.eq_dec. Qed.
Lemma item_eq_dec (a b : item) : {a = b} + {a <> b}.
Proof. decide equality; [apply Z.eq_dec|apply (list_eq_dec N.eq_dec)|apply (list_eq_dec N.eq_dec)]. Qed.
Lemma record_eq_dec (a b : record) : {a = b} + {a <> b}.
Proof. decide equality; [apply ploc_eq_dec|apply item_eq_dec|apply ploc_eq_dec]. Qed.

Definition rc (x : record) (t : tree) : nat := count_occ record_eq_dec (records t) x.
Definition cN (x : record) (nl : option ploc) : nat :=
  count_occ record_eq_dec (map RNode (match nl with Some p => [p] | None => [] end)) x.
Definition cI (x : record) (il : option ploc) (it : item) : nat :=
  count_occ record_eq_dec (map (fun y : ploc * item => RItem (fst y) (snd y)) (match il with Some q => [(q, it)] | None => [] end)) x.

Lemma rc_T x nl l il it nn nb r : rc x (T nl l il it nn nb r) = (cN x nl + cI x il it + rc x l + rc x r)%nat.
Proof.
  unfold rc, cN, cI, records, node_records, item_records. cbn [node_locs item_locs].
  rewrite !map_app, !count_occ_app. lia.
Qed.

Lemma step_tree_rc cmp t o x : (rc x (step_tree cmp t o) <= rc x t)%nat.
Proof.
  destruct (step_tree_cases cmp t o) as [->|[(new & _ & ->)|(k & ->)]]; [lia| |].
  - apply (insert_weight cmp (rc x) (cN x) (cI x)); auto using rc_T.
  - apply (delete_weight cmp (rc x) (cN x) (cI x)); auto using rc_T.
Qed.

Theorem step_tree_disjoint cmp f t o :
  rep f t -> records_disjoint t -> records_disjoint (step_tree cmp t o).
Proof.
  intros Hrep Hd. unfold records_disjoint in *.
  apply (FOP_sub record_eq_dec rdisj (records t)); [apply rdisj_sym| |exact Hd|intro x; apply step_tree_rc].
  exact (NoDup_map_inv _ _ (records_offs_NoDup f t Hrep Hd)).
Qed.
Print Assumptions step_tree_disjoint.

Lemma write_trees_disjoint : forall cs f size f' s' cs',
  Forall (fun nt => below (snd nt) size /\ records_disjoint (snd nt)) cs ->
  write_trees f size cs = (f', s', cs') -> Forall (fun nt => records_disjoint (snd nt)) cs'.
Proof.
  induction cs as [|[n t] cs IH]; intros f size f' s' cs' HF H; cbn [write_trees] in H.
  - inversion H; subst. constructor.
  - destruct (write_tree f size t) as [[f1 s1] t'] eqn:E1.
    destruct (write_trees f1 s1 cs) as [[f2 s2] cs2] eqn:E2.
    inversion H; subst; clear H. inversion HF as [|? ? [Hb Hd] Hr]; subst. cbn [snd] in *.
    pose proof (write_tree_mono _ _ _ _ _ _ E1) as Hm1.
    constructor; [cbn [snd]; exact (L3_write_tree _ _ _ _ _ _ Hb Hd E1)|].
    eapply IH; [|exact E2].
    eapply Forall_impl; [|exact Hr]. intros nt [B D]. split; [eapply below_mono; eauto|exact D].
Qed.

Definition disj3 (s : sst) : Prop := Forall (fun nt => records_disjoint (snd nt)) (ss_colls s).

Theorem sstep3_disjoint : forall cmp name s o, inv3 s -> disj3 s -> disj3 (snd (sstep3 cmp name s o)).
Proof.
  intros cmp name s o Hinv Hd. unfold disj3 in *. destruct o as [o2|].
  - apply sstep3_S2_colls; [exact Hd|]. intros t Hg. apply (step_tree_disjoint cmp (ss_file s)).
    apply (inv3_get name s t Hinv Hg).
  - destruct Hinv as [_ Hinv]. unfold sstep3, flush_trees.
    destruct (write_trees (ss_file s) (ss_size s) (ss_colls s)) as [[f1 s1] cs1] eqn:E1.
    cbn [snd ss_colls]. eapply write_trees_disjoint; [|exact E1].
    rewrite Forall_forall in *. intros nt Hin. split; [apply (Hinv nt Hin)|apply (Hd nt Hin)].
Qed.
Print Assumptions sstep3_disjoint.

Fixpoint srun3_trees (cmp : bytes -> bytes -> comparison) (name : bytes) (s : sst) (ops : list sop3) : list (option tree) :=
  match ops with
  | [] => []
  | o :: r => cs_get name (ss_colls s) :: srun3_trees cmp name (snd (sstep3 cmp name s o)) r
  end.

(* the side conditions of a run: totals below 2^64 at every Flush, sizes below 2^63 *)
Fixpoint run_ok3 (cmp : bytes -> bytes -> comparison) (name : bytes) (s : sst) (ops : list sop3) : Prop :=
  match ops with
  | [] => True
  | o :: r => totals_ok3 s o /\ ss_size (snd (sstep3 cmp name s o)) < two63 /\
              run_ok3 cmp name (snd (sstep3 cmp name s o)) r
  end.

Definition never_value (rs : list rd) (ot : option tree) : Prop :=
  match ot with
  | Some t => Forall (fun r => forall q it, In (q, it) (item_locs t) -> rd_disjoint r (value_range q it)) rs
  | None => rs = []
  end.

Lemma sstep3_never_value cmp name s o :
  inv3 s -> key_only_op3 o = true ->
  match cs_get name (ss_colls s) with Some t => records_disjoint t | None => True end ->
  never_value (fst (sstep3 cmp name s o)) (cs_get name (ss_colls s)).
Proof.
  intros Hinv Hk Hd. destruct (cs_get name (ss_colls s)) as [t|] eqn:Hg; cbn [never_value].
  - destruct (inv3_get name s t Hinv Hg) as (Hrep & _).
    eapply Forall_impl; [|exact (sstep3_key_only cmp name s o t Hg Hk)].
    intros r Hr. apply (key_only_never_value (ss_file s)); [exact Hrep|exact Hd|exact (vk_false t r Hr)].
  - apply sstep3_no_tree. exact Hg.
Qed.

Theorem seq3_never_reads_values_partial : forall cmp name ops s,
  inv3 s -> forallb key_only_op3 ops = true -> forallb set_okb ops = true -> run_ok3 cmp name s ops ->
  Forall (fun ot => match ot with Some t => records_disjoint t | None => True end) (srun3_trees cmp name s ops) ->
  Forall2 never_value (srun3 cmp name s ops) (srun3_trees cmp name s ops).
Proof.
  intros cmp name. induction ops as [|o r IH]; intros s Hinv Hk Hok Hrun Hd; [constructor|].
  cbn [forallb] in Hk, Hok. apply andb_prop in Hk. destruct Hk as [Hk1 Hk2].
  apply andb_prop in Hok. destruct Hok as [Hok1 Hok2].
  cbn [run_ok3] in Hrun. destruct Hrun as (R1 & R2 & R3).
  cbn [srun3_trees] in Hd |- *. inversion Hd as [|? ? Hd1 Hd2]; subst.
  rewrite srun3_cons. constructor.
  - apply sstep3_never_value; assumption.
  - apply IH; try assumption. apply sstep3_inv; assumption.
Qed.
Print Assumptions seq3_never_reads_values_partial.

Lemma srun3_trees_disjoint cmp name : forall ops s,
  inv3 s -> disj3 s -> forallb set_okb ops = true -> run_ok3 cmp name s ops ->
  Forall (fun ot => match ot with Some t => records_disjoint t | None => True end) (srun3_trees cmp name s ops).
Proof.
  induction ops as [|o r IH]; intros s Hinv Hd Hok Hrun; [constructor|].
  cbn [forallb] in Hok. apply andb_prop in Hok. destruct Hok as [Hok1 Hok2].
  cbn [run_ok3] in Hrun. destruct Hrun as (R1 & R2 & R3). cbn [srun3_trees]. constructor.
  - destruct (cs_get name (ss_colls s)) as [t|] eqn:Hg; [|exact I].
    exact (cs_get_Forall records_disjoint name _ _ Hd Hg).
  - apply IH; [apply sstep3_inv|apply sstep3_disjoint| |]; assumption.
Qed.

Theorem seq3_never_reads_values : forall cmp name ops s,
  inv3 s -> disj3 s -> forallb key_only_op3 ops = true -> forallb set_okb ops = true -> run_ok3 cmp name s ops ->
  Forall2 never_value (srun3 cmp name s ops) (srun3_trees cmp name s ops).
Proof.
  intros cmp name ops s Hinv Hd Hk Hok Hrun.
  apply seq3_never_reads_values_partial; try assumption. apply srun3_trees_disjoint; assumption.
Qed.
Print Assumptions seq3_never_reads_values.

Definition lookup_op (o : sop) : bool := match o with SGet _ _ | SMin _ | SMax _ => true | _ => false end.

Definition oloc_filled (P : Z -> Prop) (a a' : option ploc) : Prop :=
  match a, a' with
  | Some p, Some p' => p' = p
  | None, Some p' => P (poff p')
  | None, None => True
  | Some _, None => False
  end.

(* t' is t with some missing locations filled in (node locations at offsets in PN, item locations at offsets in
   PI); the stored aggregates may differ *)
Inductive filled (PI PN : Z -> Prop) : tree -> tree -> Prop :=
| filled_E : filled PI PN E E
| filled_T nl nl' l l' il il' it nn nn' nb nb' r r' :
    oloc_filled PN nl nl' -> oloc_filled PI il il' -> filled PI PN l l' -> filled PI PN r r' ->
    filled PI PN (T nl l il it nn nb r) (T nl' l' il' it nn' nb' r').

Lemma oloc_filled_refl P a : oloc_filled P a a.
Proof. destruct a; cbn [oloc_filled]; auto. Qed.

Lemma oloc_filled_weak (P P' : Z -> Prop) a a' : (forall o, P o -> P' o) -> oloc_filled P a a' -> oloc_filled P' a a'.
Proof. intros H. destruct a, a'; cbn [oloc_filled]; auto. Qed.

Lemma oloc_filled_trans P a b c : oloc_filled P a b -> oloc_filled P b c -> oloc_filled P a c.
Proof.
  destruct a as [p|], b as [q|], c as [r|]; cbn [oloc_filled]; intros H1 H2; try congruence; try contradiction; auto.
Qed.

Lemma filled_refl PI PN : forall t, filled PI PN t t.
Proof. induction t; constructor; auto using oloc_filled_refl. Qed.

Lemma filled_weak (PI PN PI' PN' : Z -> Prop) : (forall o, PI o -> PI' o) -> (forall o, PN o -> PN' o) ->
  forall t t', filled PI PN t t' -> filled PI' PN' t t'.
Proof. intros HI HN t t' H. induction H; constructor; eauto using oloc_filled_weak. Qed.

Lemma filled_trans PI PN : forall t t1 t2, filled PI PN t t1 -> filled PI PN t1 t2 -> filled PI PN t t2.
Proof.
  intros t t1 t2 A. revert t2.
  induction A; intros t2 B; inversion B; subst; constructor; eauto using oloc_filled_trans.
Qed.

Lemma write_items_filled : forall t f size f1 s1 t1,
  write_items f size t = (f1, s1, t1) -> filled (fun o => size <= o < s1) (fun _ => False) t t1.
Proof.
  induction t as [|nl l IHl il it nn nb r IHr]; intros f size f1 s1 t1 H; cbn [write_items] in H.
  - inversion H; subst. constructor.
  - destruct nl as [p|]; [inversion H; subst; apply filled_refl|].
    destruct (write_items f size l) as [[fa sa] la] eqn:El.
    pose proof (write_items_mono _ _ _ _ _ _ El) as Hm1. apply IHl in El.
    pose proof (item_loc_len_ge it) as Hge.
    destruct il as [q|].
    + destruct (write_items fa sa r) as [[fb sb] rb] eqn:Er.
      pose proof (write_items_mono _ _ _ _ _ _ Er) as Hm2. apply IHr in Er.
      inversion H; subst; clear H. constructor; [exact I|apply oloc_filled_refl| |];
        (eapply filled_weak; [| |eassumption]); cbv beta; intros; try lia; assumption.
    + destruct (write_items (write_at fa sa (enc_item it)) (sa + item_loc_len it) r) as [[fb sb] rb] eqn:Er.
      pose proof (write_items_mono _ _ _ _ _ _ Er) as Hm2. apply IHr in Er.
      inversion H; subst; clear H. constructor; [exact I|cbn [oloc_filled poff]; lia| |];
        (eapply filled_weak; [| |eassumption]); cbv beta; intros; try lia; assumption.
Qed.

Lemma write_nodes_filled : forall t f size f1 s1 t1,
  write_nodes f size t = (f1, s1, t1) -> filled (fun _ => False) (fun o => size <= o < s1) t t1.
Proof.
  induction t as [|nl l IHl il it nn nb r IHr]; intros f size f1 s1 t1 H; cbn [write_nodes] in H.
  - inversion H; subst. constructor.
  - destruct nl as [p|]; [inversion H; subst; apply filled_refl|].
    destruct (write_nodes f size l) as [[fa sa] la] eqn:El.
    destruct (write_nodes fa sa r) as [[fb sb] rb] eqn:Er.
    pose proof (write_nodes_mono _ _ _ _ _ _ El) as Hm1. apply IHl in El.
    pose proof (write_nodes_mono _ _ _ _ _ _ Er) as Hm2. apply IHr in Er.
    inversion H; subst; clear H. change node_len with 52.
    constructor; [cbn [oloc_filled poff]; lia|apply oloc_filled_refl| |];
      (eapply filled_weak; [| |eassumption]); cbv beta; intros; try lia; assumption.
Qed.

Lemma write_tree_filled f size t f' s' t' : write_tree f size t = (f', s', t') ->
  exists s1, size <= s1 <= s' /\ filled (fun o => size <= o < s1) (fun o => s1 <= o < s') t t'.
Proof.
  unfold write_tree. destruct (write_items f size t) as [[f1 s1] t1] eqn:E1. intro E2.
  pose proof (write_items_mono _ _ _ _ _ _ E1) as Hm1. pose proof (write_nodes_mono _ _ _ _ _ _ E2) as Hm2.
  apply write_items_filled in E1. apply write_nodes_filled in E2.
  exists s1. split; [lia|]. apply (filled_trans _ _ t t1 t').
  - eapply filled_weak; [| |exact E1]; cbv beta; intros; [assumption|contradiction].
  - eapply filled_weak; [| |exact E2]; cbv beta; intros; [contradiction|assumption].
Qed.

Lemma fresh_mem_entries PI PN : forall t t', filled PI PN t t' ->
  forall o b, In (o, b) (fresh_mem t t') -> if b then PI o else PN o.
Proof.
  induction 1 as [|nl nl' l l' il il' it nn nn' nb nb' r r' H2 H3 H4 IHl H5 IHr]; intros o b Hin; [destruct Hin|].
  cbn [fresh_mem] in Hin. apply in_app_or in Hin. destruct Hin as [Hin|Hin].
  { destruct nl as [p|], nl' as [p'|]; cbn [In] in Hin; try contradiction.
    destruct Hin as [Hin|[]]. inversion Hin; subst. exact H2. }
  apply in_app_or in Hin. destruct Hin as [Hin|Hin].
  { destruct il as [q|], il' as [q'|]; cbn [In] in Hin; try contradiction.
    destruct Hin as [Hin|[]]. inversion Hin; subst. exact H3. }
  apply in_app_or in Hin. destruct Hin as [Hin|Hin]; [eapply IHl|eapply IHr]; eassumption.
Qed.

Lemma filled_fresh PI PN : forall t t', filled PI PN t t' ->
  filled (fun o => In (o, true) (fresh_mem t t')) (fun o => In (o, false) (fresh_mem t t')) t t'.
Proof.
  induction 1 as [|nl nl' l l' il il' it nn nn' nb nb' r r' H2 H3 H4 IHl H5 IHr]; constructor.
  - destruct nl as [p|], nl' as [p'|]; cbn [oloc_filled] in *; auto.
    cbn [fresh_mem]. apply in_or_app. left. left. reflexivity.
  - destruct il as [q|], il' as [q'|]; cbn [oloc_filled] in *; auto.
    cbn [fresh_mem]. apply in_or_app. right. apply in_or_app. left. left. reflexivity.
  - eapply filled_weak; [| |exact IHl]; cbv beta; intros o Ho; cbn [fresh_mem];
      apply in_or_app; right; apply in_or_app; right; apply in_or_app; left; exact Ho.
  - eapply filled_weak; [| |exact IHr]; cbv beta; intros o Ho; cbn [fresh_mem];
      apply in_or_app; right; apply in_or_app; right; apply in_or_app; right; exact Ho.
Qed.

(* the entries of a Flush: offsets in [lo, hi), and no offset is both an item's and a node's *)
Definition entries_sep (lo hi : Z) (F : mem) : Prop :=
  (forall o b, In (o, b) F -> lo <= o < hi) /\ (forall o, In (o, true) F -> ~ In (o, false) F).

Lemma entries_sep_app lo mid hi F1 F2 : lo <= mid <= hi -> entries_sep lo mid F1 -> entries_sep mid hi F2 -> entries_sep lo hi (F1 ++ F2).
Proof.
  intros Hm [A1 A2] [B1 B2]. split.
  - intros o b Hin. apply in_app_or in Hin. destruct Hin as [Hin|Hin]; [apply A1 in Hin|apply B1 in Hin]; lia.
  - intros o Ht Hf. apply in_app_or in Ht. apply in_app_or in Hf.
    destruct Ht as [Ht|Ht], Hf as [Hf|Hf].
    + exact (A2 o Ht Hf).
    + apply A1 in Ht. apply B1 in Hf. lia.
    + apply B1 in Ht. apply A1 in Hf. lia.
    + exact (B2 o Ht Hf).
Qed.

Lemma write_tree_entries_sep f size t f' s' t' : write_tree f size t = (f', s', t') -> entries_sep size s' (fresh_mem t t').
Proof.
  intro H. destruct (write_tree_filled _ _ _ _ _ _ H) as (s1 & Hs & Hfl).
  pose proof (fresh_mem_entries _ _ _ _ Hfl) as He. split.
  - intros o b Hin. apply He in Hin. destruct b; lia.
  - intros o Ht Hf. apply He in Ht. apply He in Hf. cbv beta in Ht, Hf. lia.
Qed.

Lemma write_trees_fresh : forall cs f size f' s' cs',
  write_trees f size cs = (f', s', cs') ->
  entries_sep size s' (fresh_mems cs cs') /\
  forall name, match cs_get name cs with
               | Some t => exists t', cs_get name cs' = Some t' /\
                   filled (fun o => In (o, true) (fresh_mems cs cs')) (fun o => In (o, false) (fresh_mems cs cs')) t t'
               | None => cs_get name cs' = None
               end.
Proof.
  induction cs as [|[n t] cs IH]; intros f size f' s' cs' H; cbn [write_trees] in H.
  - inversion H; subst. split; [|intro name; reflexivity].
    split; [intros o b []|intros o []].
  - destruct (write_tree f size t) as [[f1 s1] t'] eqn:E1.
    destruct (write_trees f1 s1 cs) as [[f2 s2] cs2] eqn:E2.
    inversion H; subst; clear H.
    pose proof (write_tree_mono _ _ _ _ _ _ E1) as Hm1. pose proof (write_trees_mono _ _ _ _ _ _ E2) as Hm2.
    destruct (IH _ _ _ _ _ E2) as [S2 G2]. cbn [fresh_mems].
    split; [apply (entries_sep_app size s1 s'); [lia|eapply write_tree_entries_sep; eauto|exact S2]|].
    intro name. specialize (G2 name). cbn [cs_get]. destruct (cmp_bytes name n).
    1: { exists t'. split; [reflexivity|].
         destruct (write_tree_filled _ _ _ _ _ _ E1) as (sm & _ & Hfl). apply filled_fresh in Hfl.
         eapply filled_weak; [| |exact Hfl]; cbv beta; intros o Ho; apply in_or_app; left; exact Ho. }
    all: destruct (cs_get name cs) as [t0|]; [|exact G2];
      destruct G2 as (t0' & Hg & Hfl); exists t0'; (split; [exact Hg|]);
      eapply filled_weak; [| |exact Hfl]; cbv beta; intros o Ho; apply in_or_app; right; exact Ho.
Qed.

(* the simulation: M' = memory of the run after the Flush, M = memory of the run without it; FN / FI are the
   offsets of the node / item records the Flush wrote: those records are in M' (the items with their values) *)
Section Sim.
Variable size : Z.
Variables FI FN : Z -> Prop.
Hypothesis FI_ge : forall o, FI o -> size <= o.

Definition msim (M' M : mem) : Prop :=
  (forall o, o < size -> mem_find o M' = mem_find o M) /\
  (forall o, FN o -> mem_find o M' <> None) /\
  (forall o, FI o -> mem_find o M' = Some true).

Inductive tsim : list vtouch -> list vtouch -> Prop :=
| tsim_nil : tsim [] []
| tsim_old x ts' ts : voff x < size -> tsim ts' ts -> tsim (x :: ts') (x :: ts)
| tsim_fn p ts' ts : FN (poff p) -> tsim ts' ts -> tsim (VN p :: ts') ts
| tsim_fi q it wv ts' ts : FI (poff q) -> tsim ts' ts -> tsim (VI q it wv :: ts') ts.

Lemma tsim_app a' a b' b : tsim a' a -> tsim b' b -> tsim (a' ++ b') (a ++ b).
Proof. intros Ha Hb. induction Ha; cbn [app]; [exact Hb| | |]; constructor; assumption. Qed.

Lemma msim_cons o b M' M : o < size -> msim M' M -> msim ((o, b) :: M') ((o, b) :: M).
Proof.
  intros Ho (A & B & C). split; [|split].
  - intros o' Ho'. cbn [mem_find]. destruct (o' =? o); [reflexivity|now apply A].
  - intros o' Ho'. cbn [mem_find]. destruct (o' =? o); [discriminate|now apply B].
  - intros o' Ho'. pose proof (FI_ge o' Ho'). rewrite mem_find_cons_ne by lia. now apply C.
Qed.

Lemma vstep_sim x M' M : voff x < size -> msim M' M ->
  vstep_reads M' x = vstep_reads M x /\ msim (vstep_mem M' x) (vstep_mem M x).
Proof.
  intros Hx Hs. pose proof Hs as (A & _ & _).
  destruct x as [p|q it wv]; cbn [voff vstep_reads vstep_mem] in *; rewrite (A _ Hx).
  - destruct (mem_find (poff p) M); [split; [reflexivity|exact Hs]|].
    split; [reflexivity|]. now apply msim_cons.
  - destruct (mem_find (poff q) M) as [hasv|].
    + destruct (negb wv || hasv); [split; [reflexivity|exact Hs]|].
      split; [reflexivity|]. now apply msim_cons.
    + split; [reflexivity|]. now apply msim_cons.
Qed.

Lemma vreads_sim ts' ts : tsim ts' ts -> forall M' M, msim M' M ->
  fst (vreads M' ts') = fst (vreads M ts) /\ msim (snd (vreads M' ts')) (snd (vreads M ts)).
Proof.
  induction 1 as [|x ts' ts Hx Hts IH|p ts' ts Hp Hts IH|q it wv ts' ts Hq Hts IH]; intros M' M Hs.
  - split; [reflexivity|exact Hs].
  - rewrite !vreads_cons. cbn [fst snd].
    destruct (vstep_sim x M' M Hx Hs) as [E1 E2]. destruct (IH _ _ E2) as [I1 I2].
    rewrite E1, I1. split; [reflexivity|exact I2].
  - rewrite vreads_cons. cbn [fst snd vstep_reads vstep_mem].
    pose proof (proj1 (proj2 Hs) _ Hp) as Hm.
    destruct (mem_find (poff p) M') as [fl0|]; [|congruence]. exact (IH _ _ Hs).
  - rewrite vreads_cons. cbn [fst snd vstep_reads vstep_mem].
    rewrite (proj2 (proj2 Hs) _ Hq), orb_true_r. exact (IH _ _ Hs).
Qed.

(* the locations t already has lie below size *)
Definition old_lt : tree -> Prop := locs_sub (fun p => poff p < size) (fun x => poff (fst x) < size).

Lemma nl_sim nl nl' : oloc_filled FN nl nl' -> oN (fun p => poff p < size) nl ->
  tsim (match nl' with Some p => [VN p] | None => [] end) (match nl with Some p => [VN p] | None => [] end).
Proof.
  intros H Ho. destruct nl as [p|], nl' as [p'|]; cbn [oloc_filled] in H; try contradiction.
  - subst p'. apply tsim_old; [exact Ho|constructor].
  - apply tsim_fn; [exact H|constructor].
  - constructor.
Qed.

Lemma il_sim il il' it wv : oloc_filled FI il il' -> oI (fun x => poff (fst x) < size) il it ->
  tsim (match il' with Some q => [VI q it wv] | None => [] end) (match il with Some q => [VI q it wv] | None => [] end).
Proof.
  intros H Ho. destruct il as [q|], il' as [q'|]; cbn [oloc_filled] in H; try contradiction.
  - subst q'. apply tsim_old; [exact Ho|constructor].
  - apply tsim_fi; [exact H|constructor].
  - constructor.
Qed.

Lemma getv_t_sim cmp k wv : forall t t', filled FI FN t t' -> old_lt t ->
  tsim (getv_t cmp t' k wv) (getv_t cmp t k wv).
Proof.
  induction 1 as [|nl nl' l l' il il' it nn nn' nb nb' r r' H2 H3 H4 IHl H5 IHr]; intro Ho; [constructor|].
  apply locs_sub_T in Ho. destruct Ho as (O1 & O2 & O3 & O4).
  cbn [getv_t]. apply tsim_app; [now apply nl_sim|]. apply tsim_app; [now apply il_sim|].
  destruct (cmp k (ikey it)); [|exact (IHl O3)|exact (IHr O4)].
  destruct wv; [now apply il_sim|constructor].
Qed.

Lemma walk_t_sim left wv : forall t t', filled FI FN t t' -> old_lt t ->
  tsim (walk_t left wv t') (walk_t left wv t).
Proof.
  induction 1 as [|nl nl' l l' il il' it nn nn' nb nb' r r' H2 H3 H4 IHl H5 IHr]; intro Ho; [constructor|].
  apply locs_sub_T in Ho. destruct Ho as (O1 & O2 & O3 & O4).
  cbn [walk_t]. apply tsim_app; [now apply nl_sim|].
  destruct left.
  - specialize (IHl O3). destruct H4; [now apply il_sim|exact IHl].
  - specialize (IHr O4). destruct H5; [now apply il_sim|exact IHr].
Qed.

End Sim.

Lemma rep_below_old_lt f b t : rep f t -> below t b -> old_lt b t.
Proof.
  intros Hrep Hb.
  assert (H : forall x, In x (records t) -> fst (rspan x) < b).
  { intros x Hx. apply (Z.lt_le_trans _ _ _ (records_pos f t Hrep x Hx)).
    exact (proj1 (Forall_forall _ _) (below_records t b Hb) x Hx). }
  split; apply Forall_forall.
  - intros p Hp. exact (H _ (in_node_records t p Hp)).
  - intros [q it] Hq. exact (H _ (in_item_records t q it Hq)).
Qed.

Section SimTouches.
Variable size : Z.
Variables FI FN : Z -> Prop.
Variable cmp : bytes -> bytes -> comparison.

Lemma visit_vt_sim asc target wv : forall t t', filled FI FN t t' -> old_lt size t -> forall b,
  rel3 (tsim size FI FN) (visit_vt cmp asc t' target wv b) (visit_vt cmp asc t target wv b).
Proof.
  induction 1 as [|nl nl' l l' il il' it nn nn' nb nb' r r' H2 H3 H4 IHl H5 IHr]; intros Ho b; [repeat split; constructor|].
  apply locs_sub_T in Ho. destruct Ho as (O1 & O2 & O3 & O4).
  rewrite !visit_vt_T. apply vnode_rel.
  - intros a a' c c'. apply tsim_app.
  - apply tsim_app; [apply nl_sim|apply il_sim]; assumption.
  - apply il_sim; assumption.
  - intro b'. destruct asc; auto.
  - intro b'. destruct asc; auto.
Qed.

Lemma filled_tmin : forall t t', filled FI FN t t' -> tmin t' = tmin t.
Proof.
  induction 1 as [|nl nl' l l' il il' it nn nn' nb nb' r r' H2 H3 H4 IHl H5 IHr]; [reflexivity|].
  cbn [tmin]. destruct H4; [reflexivity|exact IHl].
Qed.

Lemma filled_size : forall t t', filled FI FN t t' -> Treap.size t' = Treap.size t.
Proof.
  induction 1 as [|nl nl' l l' il il' it nn nn' nb nb' r r' H2 H3 H4 IHl H5 IHr]; [reflexivity|].
  cbn [Treap.size]. rewrite IHl, IHr. reflexivity.
Qed.

(* the calls that leave the tree as it is *)
Definition nomut (o : sop2) : bool := match o with S1 (SSet _ _ _) | S1 (SDel _) => false | _ => true end.

Lemma touches2_sim o t t' : nomut o = true -> filled FI FN t t' -> old_lt size t ->
  tsim size FI FN (touches2 cmp t' o) (touches2 cmp t o).
Proof.
  intros Hn Hfl Ho. destruct o as [[k wv|wv|wv|k v prio|k]|asc target wv b| |]; try discriminate Hn;
    cbn [touches2 touches].
  - apply getv_t_sim; assumption.
  - apply walk_t_sim; assumption.
  - apply walk_t_sim; assumption.
  - apply (visit_vt_sim asc target wv t t' Hfl Ho b).
  - apply tsim_app; [apply walk_t_sim; assumption|].
    unfold len_touches. rewrite (filled_tmin _ _ Hfl), (filled_size _ _ Hfl).
    destruct (tmin t) as [mi|]; [apply (visit_vt_sim true (ikey mi) false t t' Hfl Ho)|constructor].
  - destruct Hfl as [|nl nl' l l' il il' it nn nn' nb nb' r r' H2 _ _ _]; [constructor|].
    exact (nl_sim size FI FN nl nl' H2 (proj1 (proj1 (locs_sub_T _ _ _ _ _ _ _ _ _) Ho))).
Qed.

End SimTouches.

(* the run after the Flush (s') and the run without it (s) *)
Definition ssim (size : Z) (FI FN : Z -> Prop) (name : bytes) (s' s : sst) : Prop :=
  match cs_get name (ss_colls s) with
  | Some t => exists t', cs_get name (ss_colls s') = Some t' /\ filled FI FN t t' /\ old_lt size t
  | None => cs_get name (ss_colls s') = None
  end /\ msim size FI FN (ss_mem s') (ss_mem s).

Lemma flush_ssim cmp name s :
  (forall t, cs_get name (ss_colls s) = Some t -> rep (ss_file s) t /\ below t (ss_size s)) ->
  exists FI FN : Z -> Prop, (forall o, FI o -> ss_size s <= o) /\
    ssim (ss_size s) FI FN name (snd (sstep3 cmp name s SFlush)) s.
Proof.
  intro Hrb. unfold sstep3, flush_trees.
  destruct (write_trees (ss_file s) (ss_size s) (ss_colls s)) as [[f1 s1] cs1] eqn:E1. cbn [snd].
  destruct (write_trees_fresh _ _ _ _ _ _ E1) as [[S1 S2] G]. specialize (G name).
  set (F := fresh_mems (ss_colls s) cs1) in *.
  exists (fun o0 => In (o0, true) F), (fun o0 => In (o0, false) F).
  split; [intros o0 Hi; apply S1 in Hi; lia|].
  unfold ssim. cbn [ss_colls ss_mem]. split.
  - destruct (cs_get name (ss_colls s)) as [t|] eqn:Hg; [|exact G].
    destruct G as (t' & Hg' & Hfl). destruct (Hrb t eq_refl) as [Hrep Hbel].
    exists t'. split; [exact Hg'|]. split; [exact Hfl|].
    exact (rep_below_old_lt _ _ t Hrep Hbel).
  - split; [|split].
    + intros o0 Ho0. rewrite mem_find_app. pose proof (mem_find_spec o0 F) as Hf.
      destruct (mem_find o0 F); [apply S1 in Hf; lia|reflexivity].
    + intros o0 Hin. rewrite mem_find_app. pose proof (mem_find_spec o0 F) as Hf.
      destruct (mem_find o0 F); [discriminate|destruct (Hf false Hin)].
    + intros o0 Hin. rewrite mem_find_app. pose proof (mem_find_spec o0 F) as Hf.
      destruct (mem_find o0 F) as [[|]|]; [reflexivity|destruct (S2 o0 Hin Hf)|destruct (Hf true Hin)].
Qed.

Lemma call_after_flush_same_reads cmp name s o :
  (forall t, cs_get name (ss_colls s) = Some t -> rep (ss_file s) t /\ below t (ss_size s)) ->
  nomut o = true ->
  fst (sstep3 cmp name (snd (sstep3 cmp name s SFlush)) (S2 o)) = fst (sstep3 cmp name s (S2 o)).
Proof.
  intros Hrb Hn. destruct (flush_ssim cmp name s Hrb) as (FI & FN & HFI & [Hrel Hms]).
  destruct (cs_get name (ss_colls s)) as [t|] eqn:Hg.
  - destruct Hrel as (t' & Hg' & Hfl & Hold).
    rewrite (sstep3_S2 cmp name _ o t' Hg'), (sstep3_S2 cmp name s o t Hg). cbn [fst].
    exact (proj1 (vreads_sim _ _ _ HFI _ _ (touches2_sim _ _ _ cmp o t t' Hn Hfl Hold) _ _ Hms)).
  - rewrite (sstep3_no_tree cmp name _ _ Hrel), (sstep3_no_tree cmp name s _ Hg). reflexivity.
Qed.

Theorem lookup_after_flush_same_reads_gen : forall cmp name s o,
  (forall t, cs_get name (ss_colls s) = Some t -> rep (ss_file s) t /\ below t (ss_size s)) ->
  lookup_op o = true ->
  fst (sstep3 cmp name (snd (sstep3 cmp name s SFlush)) (S2 (S1 o))) = fst (sstep3 cmp name s (S2 (S1 o))).
Proof.
  intros cmp name s o Hrb Hl. apply call_after_flush_same_reads; [exact Hrb|].
  destruct o; [reflexivity..|discriminate Hl|discriminate Hl].
Qed.
Print Assumptions lookup_after_flush_same_reads_gen.

Theorem lookup_after_flush_same_reads : forall cmp name s o,
  inv3 s -> Forall (fun e => fst e < ss_size s) (ss_mem s) -> lookup_op o = true ->
  fst (sstep3 cmp name (snd (sstep3 cmp name s SFlush)) (S2 (S1 o))) = fst (sstep3 cmp name s (S2 (S1 o))).
Proof.
  intros cmp name s o Hinv _ Hl. apply lookup_after_flush_same_reads_gen; [|exact Hl].
  intros t Hg. destruct (inv3_get name s t Hinv Hg) as (A & B & _). split; assumption.
Qed.
Print Assumptions lookup_after_flush_same_reads.

(* non-vacuity: a file written by the model's Flush, re-opened; SetItem, Flush, a visit (which evicts the items it
   touched, the freshly flushed one included), then a Get with value: it reads the item record the Flush of the run
   wrote, at offset 205 = the length of the first file *)
Definition ex3_tree : tree :=
  T None (T None E None (mkItem [97%N] [1%N] 3) 1 2 E) None (mkItem [98%N] [2%N] 9) 2 4 E.
Definition ex3_name : bytes := [120%N].
Definition ex3_file : file := fst (fst (flush_trees [] 0 [(ex3_name, ex3_tree)])).
Definition ex3_ops : list sop3 :=
  [S2 (S1 (SSet [99%N] [7%N] 5)); SFlush; S2 (SVis true [] false 10%nat); S2 (S1 (SGet [99%N] true))].

Definition ex3_loaded : tree :=
  T (Some (mkPloc 88 52)) (T (Some (mkPloc 36 52)) E (Some (mkPloc 0 18)) (mkItem [97%N] [1%N] 3) 1 2 E)
    (Some (mkPloc 18 18)) (mkItem [98%N] [2%N] 9) 2 4 E.

Lemma ex3_start : seq3_start ex3_file = Some (mkSst ex3_file 205 [(ex3_name, ex3_loaded)] []).
Proof. vm_compute. reflexivity. Qed.

Example seq3_example :
  blen ex3_file = 205 /\
  option_map fst (seq3_reads_file cmp_bytes ex3_file ex3_name ex3_ops) =
    Some [[Rd 88 52; Rd 18 16; Rd 34 1; Rd 36 52]; [];
          [Rd 0 16; Rd 16 1];
          [Rd 18 16; Rd 34 1; Rd 205 16; Rd 221 1; Rd 205 16; Rd 221 1; Rd 222 1]] /\
  option_map (fun x => blen (snd x)) (seq3_reads_file cmp_bytes ex3_file ex3_name ex3_ops) = Some 393.
Proof.
  split; [vm_compute; reflexivity|]. unfold seq3_reads_file. rewrite ex3_start. cbn [option_map fst snd].
  split; vm_compute; reflexivity.
Qed.
Print Assumptions seq3_example.

Example seq3_example_inv : exists s, seq3_start ex3_file = Some s /\ inv3 s /\
  Forall (fun nt => records_disjoint (snd nt)) (ss_colls s).
Proof.
  exists (mkSst ex3_file 205 [(ex3_name, ex3_loaded)] []). split; [exact ex3_start|].
  assert (Hl : load 3 ex3_file (Some (mkPloc 88 52)) 205 3 = Some (ex3_loaded, 1%nat)) by (vm_compute; reflexivity).
  destruct (load_sound _ _ _ _ _ _ _ Hl eq_refl) as [Hrep Hbel].
  split.
  - unfold inv3. cbn [ss_size ss_file ss_colls]. split; [rewrite (proj1 seq3_example); lia|].
    constructor; [|constructor]. cbn [snd]. split; [exact Hrep|]. split; [exact Hbel|]. unfold ex3_loaded. split.
    + cbn [aggs]. repeat split.
    + unfold items_ok. cbn [elems app]. repeat constructor; apply item_okb_ok; vm_compute; reflexivity.
  - cbn [ss_colls]. constructor; [|constructor]. cbn [snd].
    unfold records_disjoint, ex3_loaded. cbn [records node_records item_records node_locs item_locs app map fst snd].
    repeat constructor; unfold rdisj, idisj; cbn [rspan fst snd poff plen]; lia.
Qed.
Print Assumptions seq3_example_inv.
