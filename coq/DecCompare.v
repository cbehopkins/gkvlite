(* Store.SetCollection: a nil comparator means bytes.Compare (C12). *)
From GK Require Import Base Treap Codec Blocks GExpr Generated DecBase.
From Coq Require Import ZArith NArith List String Bool Lia.
Import ListNotations.
Open Scope string_scope.
Open Scope list_scope.
Open Scope Z_scope.

Theorem nil_compare_is_default :
  match body "Store.SetCollection" with
  | SIf [] (GBin "==" (GVar "compare") GNil) [SAssign [GVar "compare"] "=" [GVar "bytes.Compare"]] [] :: _ => True
  | _ => False
  end.
Proof. vm_compute. exact I. Qed.

