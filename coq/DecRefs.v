(* the places where the source takes or gives back an item reference (C15, Refcount.v: one event per place). *)
From GK Require Import Base Treap Codec Blocks GExpr Generated DecBase GExprFacts.
From Coq Require Import ZArith NArith List String Bool Lia.
Import ListNotations.
Open Scope string_scope.
Open Scope list_scope.
Open Scope Z_scope.

Theorem reference_sites :
  (* Exist gives back the reference GetItem took *)
  body "Collection.Exist" =
    [SAssign [GVar "val"; GVar "_"] ":=" [GCall "t.GetItem" [GVar "key"; GVar "false"]];
     SIf [] (GBin "!=" (GVar "val") GNil)
       [SExpr (GCall "t.store.ItemDecRef" [GVar "t"; GVar "val"]); SReturn [GVar "true"]] [];
     SReturn [GVar "false"]] /\
  (* Len and CopyTo give back the reference MinItem took, CopyTo once per collection (inside its loop over the
     collections, statement 4 of its body) *)
  In (SDefer (GCall "t.store.ItemDecRef" [GVar "t"; GVar "si"])) (body "Collection.Len") /\
  In (SDefer (GCall "s.ItemDecRef" [GVar "srcColl"; GVar "minItem"]))
     (match nth_error (body "Store.CopyTo") 4 with Some (SRange _ _ _ b) => b | _ => [] end) /\
  (* GetItem takes exactly one reference for the caller, as its last call; SetItem one for the tree, before union *)
  count_occ string_dec (call_list "Collection.GetItem") "t.store.ItemAddRef" = 1%nat /\
  last (call_list "Collection.GetItem") "" = "t.store.ItemAddRef" /\
  count_occ string_dec (call_list "Collection.SetItem") "t.store.ItemAddRef" = 1%nat /\
  before "t.store.ItemAddRef" "t.store.union" (call_list "Collection.SetItem") = true /\
  (* a freed node releases its item; an item evicted during a visit is released *)
  In "t.store.ItemDecRef" (call_list "Collection.freeNodeUnlocked") /\
  existsb (has_sub "o.ItemDecRef(t, i)") (call_list "Store.visitNodes") = true.
Proof.
  repeat apply conj; try (vm_compute; reflexivity).
  - find_in is_defer.
  - find_in is_defer.
  - find_in (String.eqb "t.store.ItemDecRef").
Qed.

