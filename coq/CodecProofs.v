(* Round trips of the codecs of Codec.v: what is encoded decodes to itself.  First the facts about
   comparisons in Z, lists, Forall2 and byte strings that these proofs and the files above Codec use. *)
From GK Require Import Base Treap Codec.
From Coq Require Import Lia ZArith NArith List Bool.
Import ListNotations.
Open Scope Z_scope.

Lemma two32_eq : two32 = 4294967296. Proof. reflexivity. Qed.
Lemma two31_eq : two31 = 2147483648. Proof. reflexivity. Qed.
Lemma two63_eq : two63 = 9223372036854775808. Proof. reflexivity. Qed.
Lemma node_len_eq : node_len = 52. Proof. reflexivity. Qed.
Lemma roots_len_eq : roots_len = 44. Proof. reflexivity. Qed.
Lemma item_hdr_len_eq : item_hdr_len = 16. Proof. reflexivity. Qed.
Lemma pow256_4 : 256 ^ Z.of_nat 4 = 4294967296. Proof. reflexivity. Qed.
Lemma pow256_8 : 256 ^ Z.of_nat 8 = 18446744073709551616. Proof. reflexivity. Qed.

Lemma Zleb_t a b : a <= b -> (a <=? b) = true. Proof. apply Z.leb_le. Qed.
Lemma Zleb_f a b : b < a -> (a <=? b) = false. Proof. apply Z.leb_gt. Qed.
Lemma Zltb_t a b : a < b -> (a <? b) = true. Proof. apply Z.ltb_lt. Qed.
Lemma Zltb_f a b : b <= a -> (a <? b) = false. Proof. apply Z.ltb_ge. Qed.

Lemma skipn_skipn' {A} : forall (a b : nat) (l : list A), skipn a (skipn b l) = skipn (b + a) l.
Proof.
  intros a b; revert a. induction b as [|b IH]; intros a l; [reflexivity|].
  destruct l as [|x l]; [now rewrite !skipn_nil|]. simpl. apply IH.
Qed.

Lemma firstn_app_len {A} (a x : list A) n : length a = n -> firstn n (a ++ x) = a.
Proof. intros <-. rewrite firstn_app, Nat.sub_diag, firstn_all. apply app_nil_r. Qed.

Lemma skipn_app_len {A} (a x : list A) n m : length a = n -> skipn (n + m) (a ++ x) = skipn m x.
Proof. intros <-. rewrite skipn_app, skipn_all2, Nat.add_comm, Nat.add_sub by lia. reflexivity. Qed.

Lemma Forall2_impl_In {A B} (P Q : A -> B -> Prop) l l' :
  (forall a b, In a l -> P a b -> Q a b) -> Forall2 P l l' -> Forall2 Q l l'.
Proof.
  intros H H2. induction H2 as [|a b l l' Hab H2 IH]; constructor.
  - apply H; [left; reflexivity | exact Hab].
  - apply IH. intros a0 b0 Hin. apply H. right. exact Hin.
Qed.

Lemma Forall2_imp {A B} (P Q : A -> B -> Prop) l l' :
  (forall a b, P a b -> Q a b) -> Forall2 P l l' -> Forall2 Q l l'.
Proof. intros H. apply Forall2_impl_In. intros a b _. apply H. Qed.

Lemma Forall2_in_r {A B} (P : A -> B -> Prop) l l' b :
  Forall2 P l l' -> In b l' -> exists a, In a l /\ P a b.
Proof.
  induction 1 as [|a0 b0 l l' H0 H2 IH]; intros Hin; [destruct Hin|].
  destruct Hin as [<-|Hin].
  - exists a0. split; [left; reflexivity | exact H0].
  - destruct (IH Hin) as (a & Ha & Hp). exists a. split; [right; exact Ha | exact Hp].
Qed.

Lemma Forall2_map_eq {A B C} (R : A -> B -> Prop) (g : B -> C) (h : A -> C) l l' :
  (forall a b, R a b -> g b = h a) -> Forall2 R l l' -> map g l' = map h l.
Proof. intros H. induction 1; cbn [map]; f_equal; auto. Qed.

Lemma Forall2_Forall_r {A B} (R : A -> B -> Prop) (P : A -> Prop) (Q : B -> Prop) l l' :
  (forall a b, R a b -> P a -> Q b) -> Forall2 R l l' -> Forall P l -> Forall Q l'.
Proof. intros H. induction 1; intros HP; inversion HP; subst; constructor; eauto. Qed.

Lemma Forall2_Forall_l {A B} (R : A -> B -> Prop) (P : A -> Prop) (Q : B -> Prop) l l' :
  (forall a b, R a b -> Q b -> P a) -> Forall2 R l l' -> Forall Q l' -> Forall P l.
Proof. intros H. induction 1; intros HQ; inversion HQ; subst; constructor; eauto. Qed.

Lemma blen_app a b : blen (a ++ b) = blen a + blen b.
Proof. unfold blen. rewrite app_length. lia. Qed.

Lemma blen_nonneg b : 0 <= blen b.
Proof. unfold blen. lia. Qed.

Lemma blen_nil : blen [] = 0. Proof. reflexivity. Qed.
Lemma blen_cons x b : blen (x :: b) = 1 + blen b.
Proof. unfold blen. simpl length. lia. Qed.

Lemma byte_ok_app a b : byte_ok (a ++ b) = byte_ok a && byte_ok b.
Proof. induction a as [|x a IH]; simpl; [reflexivity|]. rewrite IH. now rewrite andb_assoc. Qed.

Lemma beq_refl a : beq a a = true.
Proof. induction a as [|x a IH]; [reflexivity|]. cbn [beq]. now rewrite N.eqb_refl. Qed.

Lemma beq_eq a : forall b, beq a b = true -> a = b.
Proof.
  induction a as [|x a IH]; intros [|y b] H; cbn [beq] in H; try discriminate; [reflexivity|].
  apply andb_prop in H as [Hx Hb]. apply N.eqb_eq in Hx. f_equal; auto.
Qed.

Lemma sub_length b off len : (off + len <= length b)%nat -> length (sub b off len) = len.
Proof. intros H. unfold sub. rewrite firstn_length, skipn_length. lia. Qed.

Lemma sub_app_l a x off len : (off + len <= length a)%nat -> sub (a ++ x) off len = sub a off len.
Proof.
  intros H. unfold sub. rewrite skipn_app.
  replace (off - length a)%nat with 0%nat by lia. simpl skipn at 2.
  rewrite firstn_app, skipn_length.
  replace (len - (length a - off))%nat with 0%nat by lia. simpl. apply app_nil_r.
Qed.

Lemma sub_app_r a x k n : sub (a ++ x) (length a + k) n = sub x k n.
Proof. unfold sub. now rewrite (skipn_app_len a x _ k eq_refl). Qed.

Lemma sub_app_exact a x : sub (a ++ x) 0 (length a) = a.
Proof. exact (firstn_app_len a x _ eq_refl). Qed.

Lemma sub_mid pre x post :
  sub (pre ++ x ++ post) (Z.to_nat (blen pre)) (Z.to_nat (blen x)) = x.
Proof.
  unfold blen. rewrite !Nat2Z.id, <- (Nat.add_0_r (length pre)), sub_app_r. apply sub_app_exact.
Qed.

Lemma sub_sub b o len o' len' : (o' + len' <= len)%nat ->
  sub (sub b o len) o' len' = sub b (o + o') len'.
Proof.
  intros H. unfold sub. rewrite skipn_firstn_comm, firstn_firstn, skipn_skipn'.
  f_equal. lia.
Qed.

Lemma sub_0 b o : sub b o 0 = [].
Proof. reflexivity. Qed.

Lemma be_length n z : length (be n z) = n.
Proof.
  revert z. induction n as [|n IH]; intros z; simpl; [reflexivity|].
  rewrite app_length, IH. simpl. lia.
Qed.

Lemma blen_be n z : blen (be n z) = Z.of_nat n.
Proof. unfold blen. now rewrite be_length. Qed.

Lemma be_byte_ok n z : 0 <= z -> byte_ok (be n z) = true.
Proof.
  revert z. induction n as [|n IH]; intros z Hz; simpl; [reflexivity|].
  rewrite byte_ok_app, IH by (apply Z.div_pos; lia). simpl.
  rewrite andb_true_r. apply N.ltb_lt.
  assert (0 <= z mod 256 < 256) by (apply Z.mod_pos_bound; lia). lia.
Qed.

Lemma de_acc_app a b acc : de_acc acc (a ++ b) = de_acc (de_acc acc a) b.
Proof. revert acc. induction a as [|x a IH]; intros acc; simpl; [reflexivity|]. apply IH. Qed.

Lemma de_acc_be n : forall z acc, 0 <= z < 256 ^ Z.of_nat n ->
  de_acc acc (be n z) = acc * 256 ^ Z.of_nat n + z.
Proof.
  induction n as [|n IH]; intros z acc Hz.
  - simpl in *. lia.
  - rewrite Nat2Z.inj_succ, Z.pow_succ_r in * by lia.
    cbn [be]. rewrite de_acc_app, IH.
    + cbn [de_acc]. rewrite Z2N.id by (apply Z.mod_pos_bound; lia).
      pose proof (Z.div_mod z 256). lia.
    + split; [apply Z.div_pos; lia|]. apply Z.div_lt_upper_bound; lia.
Qed.

Lemma de_be n z : 0 <= z < 256 ^ Z.of_nat n -> de (be n z) = z.
Proof. intros H. unfold de. rewrite de_acc_be by assumption. lia. Qed.

Lemma de_acc_nonneg b : forall acc, 0 <= acc -> 0 <= de_acc acc b.
Proof. induction b as [|x b IH]; intros acc H; simpl; [assumption|]. apply IH. lia. Qed.

Lemma de_nonneg b : 0 <= de b.
Proof. apply de_acc_nonneg. lia. Qed.

Lemma read_at_eq f o len : 0 <= o -> o + len <= blen f ->
  read_at f o len = Some (sub f (Z.to_nat o) (Z.to_nat len)).
Proof.
  intros Ho H. unfold read_at. destruct (Z.eqb_spec len 0) as [->|_]; [reflexivity|].
  now rewrite !Zleb_t.
Qed.

Lemma read_at_inv f o len b : read_at f o len = Some b ->
  b = sub f (Z.to_nat o) (Z.to_nat len) /\ (len = 0 \/ (0 <= o /\ o + len <= blen f)).
Proof.
  unfold read_at. destruct (len =? 0) eqn:E.
  - apply Z.eqb_eq in E. subst len. intros H; inversion H. split; [reflexivity|now left].
  - destruct (0 <=? o) eqn:E1; [|discriminate]. destruct (o + len <=? blen f) eqn:E2; [|discriminate].
    simpl. intros H; inversion H. apply Z.leb_le in E1, E2. split; [reflexivity|right; lia].
Qed.

Lemma read_at_length f o len b : read_at f o len = Some b -> length b = Z.to_nat len.
Proof.
  intros H. apply read_at_inv in H. destruct H as [-> [->|[H1 H2]]]; [reflexivity|].
  destruct (Z_le_gt_dec len 0).
  - replace (Z.to_nat len) with 0%nat by lia. reflexivity.
  - apply sub_length. unfold blen in H2. lia.
Qed.

Lemma read_at_blen f o len b : read_at f o len = Some b -> 0 <= len -> blen b = len.
Proof. intros H Hl. apply read_at_length in H. unfold blen. lia. Qed.

Lemma read_at_0 f o : read_at f o 0 = Some [].
Proof. reflexivity. Qed.

Lemma read_at_app_l a x o len : 0 <= o -> o + len <= blen a ->
  read_at (a ++ x) o len = read_at a o len.
Proof.
  intros Ho H. pose proof (blen_nonneg x). rewrite !read_at_eq by (rewrite ?blen_app; lia).
  f_equal. destruct (Z_le_gt_dec len 0) as [L|L].
  - now replace (Z.to_nat len) with 0%nat by lia.
  - apply sub_app_l. unfold blen in H. lia.
Qed.

Lemma read_at_firstn f n o len : 0 <= o -> o + len <= Z.of_nat n ->
  read_at (firstn n f) o len = read_at f o len.
Proof.
  intros Ho H. destruct (le_lt_dec (length f) n) as [L|L].
  - now rewrite firstn_all2.
  - rewrite <- (firstn_skipn n f) at 2. symmetry. apply read_at_app_l; [assumption|].
    unfold blen. rewrite firstn_length. lia.
Qed.

Lemma write_at_split f off d : 0 <= off <= blen f ->
  exists a c, write_at f off d = a ++ d ++ c /\ a = firstn (Z.to_nat off) f /\ blen a = off.
Proof.
  intros H. unfold write_at. eexists _, _. split; [reflexivity|]. split; [reflexivity|].
  unfold blen in *. rewrite firstn_length. lia.
Qed.

Lemma write_at_app g off a v : 0 <= off ->
  write_at (write_at g off a) (off + blen a) v = write_at g off (a ++ v).
Proof.
  intros Ho. unfold write_at.
  replace (Z.to_nat (off + blen a)) with (Z.to_nat off + length a)%nat by (unfold blen; lia).
  set (o := Z.to_nat off). rewrite (app_assoc _ a), app_length.
  (* the second write cuts the file exactly behind firstn o g ++ a, or g ends before o *)
  destruct (le_lt_dec o (length g)) as [L|L].
  - assert (Ha : length (firstn o g ++ a) = (o + length a)%nat)
      by (rewrite app_length, firstn_length; lia).
    rewrite (firstn_app_len _ _ _ Ha), (skipn_app_len _ _ _ _ Ha), skipn_skipn', <- !app_assoc.
    do 4 f_equal. lia.
  - rewrite (firstn_all2 g), !(skipn_all2 g), !app_nil_r by lia.
    rewrite firstn_all2, skipn_all2 by (rewrite app_length; lia).
    now rewrite <- !app_assoc, app_nil_r.
Qed.

Lemma blen_write_at f off d : 0 <= off <= blen f ->
  blen (write_at f off d) = Z.max (blen f) (off + blen d).
Proof.
  intros H. unfold write_at, blen in *. rewrite !app_length, firstn_length, skipn_length. lia.
Qed.

Lemma read_at_mid a d c : read_at (a ++ d ++ c) (blen a) (blen d) = Some d.
Proof.
  pose proof (blen_nonneg a). pose proof (blen_nonneg c).
  rewrite read_at_eq by (rewrite ?blen_app; lia). f_equal. apply sub_mid.
Qed.

Lemma read_write_same f off d : 0 <= off <= blen f ->
  read_at (write_at f off d) off (blen d) = Some d.
Proof.
  intros H. destruct (write_at_split f off d H) as (a & c & -> & _ & Ha).
  rewrite <- Ha. apply read_at_mid.
Qed.

Lemma read_write_below f off d o len : 0 <= off <= blen f -> 0 <= o -> o + len <= off ->
  read_at (write_at f off d) o len = read_at f o len.
Proof.
  intros H Ho Hl. destruct (write_at_split f off d H) as (a & c & -> & Ha & Hb).
  rewrite read_at_app_l by lia. subst a. apply read_at_firstn; lia.
Qed.

Lemma read_sub f o len b o' len' : read_at f o len = Some b -> 0 <= o' -> o' + len' <= len -> 0 <= len' ->
  read_at f (o + o') len' = Some (sub b (Z.to_nat o') (Z.to_nat len')).
Proof.
  intros H Ho' Hl Hl'. destruct (Z.eq_dec len' 0) as [->|N]; [reflexivity|].
  apply read_at_inv in H. destruct H as [-> [->|[H1 H2]]]; [lia|].
  rewrite read_at_eq by lia. f_equal. rewrite sub_sub by lia. f_equal. lia.
Qed.

Lemma read_at_split f o a b : read_at f o (blen (a ++ b)) = Some (a ++ b) ->
  read_at f o (blen a) = Some a /\ read_at f (o + blen a) (blen b) = Some b.
Proof.
  intros H. pose proof (blen_nonneg a). pose proof (blen_nonneg b). rewrite blen_app in H.
  split.
  - rewrite <- (Z.add_0_r o), (read_sub _ _ _ _ _ _ H) by lia. f_equal. apply (sub_mid [] a b).
  - rewrite (read_sub _ _ _ _ _ _ H) by lia. f_equal. generalize (sub_mid a b []). now rewrite app_nil_r.
Qed.

Definition item_ok (it : item) : Prop :=
  byte_ok (ikey it) = true /\ byte_ok (ival it) = true /\
  item_loc_len it < two32 /\ - two31 <= iprio it < two31.

Lemma hdr_fields a b c d :
  let h := be 4 a ++ be 4 b ++ be 4 c ++ be 4 d in
  sub h 0 4 = be 4 a /\ sub h 4 4 = be 4 b /\ sub h 8 4 = be 4 c /\ sub h 12 4 = be 4 d.
Proof. cbv zeta. repeat split; reflexivity. Qed.

Lemma enc_item_hdr_length it : length (enc_item_hdr it) = 16%nat.
Proof. unfold enc_item_hdr. rewrite !app_length, !be_length. reflexivity. Qed.

Lemma item_loc_len_eq it : item_loc_len it = 16 + blen (ikey it) + blen (ival it).
Proof. reflexivity. Qed.

Lemma blen_enc_item it : blen (enc_item it) = item_loc_len it.
Proof.
  unfold enc_item. rewrite !blen_app. unfold blen at 1. rewrite enc_item_hdr_length.
  rewrite item_loc_len_eq. lia.
Qed.

Lemma item_loc_len_ge it : 16 <= item_loc_len it.
Proof. rewrite item_loc_len_eq. pose proof (blen_nonneg (ikey it)). pose proof (blen_nonneg (ival it)). lia. Qed.

Lemma prio_signed p : - two31 <= p < two31 ->
  (if p mod two32 <? two31 then p mod two32 else p mod two32 - two32) = p.
Proof.
  rewrite two31_eq, two32_eq. intros H.
  destruct (Z_lt_ge_dec p 0) as [L|L].
  - assert (E : p mod 4294967296 = p + 4294967296).
    { symmetry. apply (Z.mod_unique_pos p 4294967296 (-1)); lia. }
    rewrite E. destruct (Z.ltb_spec (p + 4294967296) 2147483648); lia.
  - rewrite Z.mod_small by lia. destruct (Z.ltb_spec p 2147483648); lia.
Qed.

Theorem dec_item_enc f o it : item_ok it -> 0 <= o ->
  read_at f o (item_loc_len it) = Some (enc_item it) ->
  dec_item f (mkPloc o (item_loc_len it)) = Some it.
Proof.
  intros (_ & _ & Hlen & Hp) _ Hr. rewrite <- blen_enc_item in Hr.
  apply read_at_split in Hr as [Hh Hr]. apply read_at_split in Hr as [Hk Hv].
  change (blen (enc_item_hdr it)) with 16 in *.
  pose proof (blen_nonneg (ikey it)). pose proof (blen_nonneg (ival it)).
  pose proof (Z.mod_pos_bound (iprio it) two32 eq_refl) as Hm.
  unfold dec_item. cbn [plen poff]. rewrite item_loc_len_eq in *. change item_hdr_len with 16.
  rewrite Zltb_f, Hh by lia.
  destruct (hdr_fields (16 + blen (ikey it) + blen (ival it)) (blen (ikey it))
              (blen (ival it)) (iprio it mod two32)) as (F1 & F2 & F3 & F4).
  cbv zeta in F1, F2, F3, F4. unfold enc_item_hdr. change item_hdr_len with 16. rewrite F1, F2, F3, F4.
  rewrite (de_be 4 (_ mod _)), prio_signed by assumption.
  rewrite two32_eq in *. rewrite !de_be by (rewrite pow256_4; lia).
  rewrite Z.mod_small, Z.eqb_refl, Hk, Hv by lia. now destruct it.
Qed.

Definition ploc_ok (p : ploc) : Prop :=
  0 <= poff p < two63 /\ 0 <= plen p < two32 /\ ~ (poff p = 0 /\ plen p = 0).
Definition oploc_ok (o : option ploc) : Prop :=
  match o with Some p => ploc_ok p | None => True end.

Lemma dec_ploc_enc p : oploc_ok p -> dec_ploc (enc_ploc p) = p.
Proof.
  intros H. destruct p as [[o l]|]; [|reflexivity].
  destruct H as (Ho & Hl & Hn). cbn [poff plen] in *. rewrite two63_eq in Ho. rewrite two32_eq in Hl.
  unfold dec_ploc, enc_ploc. cbn [poff plen].
  (* [be] at a literal width is an explicit list of that length *)
  change (sub (be 8 o ++ be 4 l) 0 8) with (be 8 o). change (sub (be 8 o ++ be 4 l) 8 4) with (be 4 l).
  rewrite !de_be by (rewrite ?pow256_4, ?pow256_8; lia).
  destruct (Z.eqb_spec o 0); destruct (Z.eqb_spec l 0); simpl; try reflexivity. exfalso; tauto.
Qed.

Lemma enc_ploc_eq p : exists o l, enc_ploc p = be 8 o ++ be 4 l.
Proof. destruct p; eexists _, _; reflexivity. Qed.

Lemma node_fields il ll rl nn nb :
  let n := enc_node il ll rl nn nb in
  sub n 0 12 = enc_ploc il /\ sub n 12 12 = enc_ploc ll /\ sub n 24 12 = enc_ploc rl /\
  sub n 36 8 = be 8 nn /\ sub n 44 8 = be 8 nb.
Proof.
  unfold enc_node. destruct (enc_ploc_eq il) as (? & ? & ->), (enc_ploc_eq ll) as (? & ? & ->),
    (enc_ploc_eq rl) as (? & ? & ->). repeat split; reflexivity.
Qed.

Lemma blen_enc_node il ll rl nn nb : blen (enc_node il ll rl nn nb) = node_len.
Proof. destruct il, ll, rl; reflexivity. Qed.

Theorem dec_node_enc f o il ll rl nn nb :
  oploc_ok il -> oploc_ok ll -> oploc_ok rl -> 0 <= nn < 2 ^ 64 -> 0 <= nb < 2 ^ 64 -> 0 <= o ->
  read_at f o node_len = Some (enc_node il ll rl nn nb) ->
  dec_node f (mkPloc o node_len) = Some (mkNodeRec il ll rl nn nb).
Proof.
  intros Hil Hll Hrl Hnn Hnb Ho Hr. unfold dec_node. cbn [plen poff].
  rewrite Z.eqb_refl. cbn [negb]. rewrite Hr.
  destruct (node_fields il ll rl nn nb) as (F1 & F2 & F3 & F4 & F5). rewrite F1, F2, F3, F4, F5.
  rewrite !dec_ploc_enc by assumption.
  change (2 ^ 64) with 18446744073709551616 in *.
  rewrite !de_be by (rewrite pow256_8; lia). reflexivity.
Qed.

Definition name_ok (n : bytes) : Prop := Forall (fun c => (c < 128)%N) n.

(* The offsets and lengths must be below 10^40, because [decimal] emits at most 40 digits
   (Counterex.json_cex: 10^40 does not round-trip). *)
Definition entry_ok (e : bytes * option ploc) : Prop :=
  let '(n, p) := e in
  name_ok n /\
  match p with
  | Some q => 0 <= poff q < 10 ^ 40 /\ 0 <= plen q < 10 ^ 40 /\ ~ (poff q = 0 /\ plen q = 0)
  | None => True
  end.

Lemma dec_string_esc_byte c k rest acc :
  dec_string (S k) (esc_byte c ++ rest) acc = dec_string k rest (c :: acc).
Proof.
  destruct c as [|p]; [reflexivity|].
  (* six known bits tell a longer number from every byte that esc_byte and dec_string test for, except 92 *)
  do 6 (try destruct p as [p|p|]); try reflexivity; destruct p; reflexivity.
Qed.

Lemma esc_byte_length c : (1 <= length (esc_byte c))%nat.
Proof.
  unfold esc_byte.
  repeat match goal with |- context [if ?b then _ else _] => destruct b end; simpl; lia.
Qed.

Lemma esc_string_cons c n : esc_string (c :: n) = esc_byte c ++ esc_string n.
Proof. reflexivity. Qed.

Lemma dec_string_esc n : forall k rest acc, (length (esc_string n) < k)%nat ->
  dec_string k (esc_string n ++ 34%N :: rest) acc = Some (rev acc ++ n, rest).
Proof.
  induction n as [|c n IH]; intros k rest acc Hk.
  - destruct k as [|k]; [inversion Hk|]. simpl. now rewrite app_nil_r.
  - rewrite esc_string_cons in *. rewrite app_length in Hk. pose proof (esc_byte_length c).
    destruct k as [|k]; [inversion Hk|].
    rewrite <- app_assoc, dec_string_esc_byte, IH by lia. simpl. now rewrite <- app_assoc.
Qed.

Definition is_digit (c : N) : bool := ((48 <=? c) && (c <=? 57))%N.
Definition no_digit_head (b : bytes) : Prop :=
  match b with [] => True | c :: _ => is_digit c = false end.

Fixpoint dna (b : bytes) (acc : Z) (seen : bool) : option (Z * bytes) :=
  match b with
  | c :: rest =>
    if is_digit c then dna rest (acc * 10 + Z.of_N (c - 48)) true
    else if seen then Some (acc, b) else None
  | [] => if seen then Some (acc, []) else None
  end.

Lemma dec_number_acc_dna : forall b fuel acc seen, (length b < fuel)%nat ->
  dec_number_acc fuel b acc seen = dna b acc seen.
Proof.
  induction b as [|c b IH]; intros fuel acc seen H; (destruct fuel as [|fuel]; [inversion H|]).
  - reflexivity.
  - cbn [dec_number_acc dna]. fold (is_digit c). destruct (is_digit c); [|reflexivity].
    apply IH. simpl in H. lia.
Qed.

Lemma dna_stop rest a : no_digit_head rest -> dna rest a true = Some (a, rest).
Proof. destruct rest as [|c r]; simpl; [reflexivity|]. now intros ->. Qed.

Lemma dna_digit m b a s : (m < 10)%N -> dna ((48 + m)%N :: b) a s = dna b (a * 10 + Z.of_N m) true.
Proof.
  intros H. cbn [dna]. unfold is_digit. rewrite N.add_comm, N.add_sub.
  now rewrite (proj2 (N.leb_le 48 _)), (proj2 (N.leb_le _ 57)) by lia.
Qed.

Lemma digits_acc_dna : forall fuel n acc, (n < 10 ^ N.of_nat fuel)%N -> (0 < fuel)%nat ->
  ((0 < n)%N -> exists c tl, digits_acc fuel n acc = c :: tl /\ c <> 48%N) /\
  exists d, 0 <= d /\ forall rest a s,
    dna (digits_acc fuel n acc ++ rest) a s = dna (acc ++ rest) (a * 10 ^ d + Z.of_N n) true.
Proof.
  induction fuel as [|k IH]; intros n acc Hn Hf; [inversion Hf|].
  cbn [digits_acc]. destruct (N.ltb_spec n 10) as [L|L].
  - rewrite N.mod_small by assumption. split.
    + intros H0. eexists _, _. split; [reflexivity|lia].
    + exists 1. split; [lia|]. intros rest a s. cbn [app]. now rewrite dna_digit, Z.pow_1_r.
  - assert (Hk : (0 < k)%nat).
    { destruct k; [|lia]. simpl in Hn. lia. }
    assert (Hd : (n / 10 < 10 ^ N.of_nat k)%N).
    { apply N.div_lt_upper_bound; [lia|]. rewrite Nat2N.inj_succ, N.pow_succ_r' in Hn. exact Hn. }
    destruct (IH (n / 10)%N ((48 + n mod 10)%N :: acc) Hd Hk) as (Hh & d & Hd0 & Hdna). split.
    + intros _. apply Hh, N.div_str_pos. lia.
    + exists (d + 1). split; [lia|]. intros rest a s. rewrite Hdna. cbn [app].
      rewrite dna_digit by (apply N.mod_lt; lia).
      f_equal. rewrite Z.pow_add_r, Z.pow_1_r by lia.
      rewrite N2Z.inj_div, N2Z.inj_mod. pose proof (Z.div_mod (Z.of_N n) 10). lia.
Qed.

Lemma dec_number_nz c tl : c <> 48%N ->
  dec_number (c :: tl) = dec_number_acc (S (length (c :: tl))) (c :: tl) 0 false.
Proof.
  intros H. destruct c as [|p]; [reflexivity|].
  (* off the bits of 48 the match in dec_number is decided *)
  do 6 (try (destruct p as [p|p|]; try reflexivity)). now destruct H.
Qed.

Lemma decimal_0 : decimal 0 = [48%N].
Proof. reflexivity. Qed.

Lemma dec_number_decimal z rest : 0 <= z < 10 ^ 40 -> no_digit_head rest ->
  dec_number (decimal z ++ rest) = Some (z, rest).
Proof.
  intros Hz Hr. destruct (Z.eq_dec z 0) as [->|Nz].
  - rewrite decimal_0. cbn [app]. unfold dec_number. destruct rest as [|c r]; [reflexivity|].
    simpl in Hr. unfold is_digit in Hr. now rewrite Hr.
  - unfold decimal.
    assert (Hn : (Z.to_N z < 10 ^ N.of_nat 40)%N).
    { change (10 ^ N.of_nat 40)%N with (Z.to_N (10 ^ 40)). apply Z2N.inj_lt; lia. }
    destruct (digits_acc_dna 40 (Z.to_N z) [] Hn) as (Hh & d & Hd & Hdna); [lia|].
    destruct Hh as (c & tl & E & Hc); [lia|].
    specialize (Hdna rest 0 false).
    rewrite E in *. cbn [app] in *. rewrite dec_number_nz by assumption.
    rewrite dec_number_acc_dna by lia. rewrite Hdna, dna_stop by assumption.
    rewrite Z2N.id by lia. f_equal.
Qed.

Global Opaque decimal esc_string.

Lemma dec_json_entry_enc n p rest : entry_ok (n, p) ->
  dec_json_entry (enc_json_entry (n, p) ++ rest) = Some (n, p, rest).
Proof.
  intros (_ & Hp).
  assert (exists o l, match p with Some x => (poff x, plen x) | None => (0, 0) end = (o, l) /\
            0 <= o < 10 ^ 40 /\ 0 <= l < 10 ^ 40 /\
            (if (o =? 0) && (l =? 0) then None else Some (mkPloc o l)) = p) as (o & l & E & Ho & Hl & Ep).
  { destruct p as [[o l]|]; cbn [poff plen] in Hp; [exists o, l | exists 0, 0]; repeat split; try lia.
    destruct (Z.eqb_spec o 0), (Z.eqb_spec l 0); simpl; try reflexivity. exfalso; tauto. }
  unfold enc_json_entry, dec_json_entry. rewrite E, <- !app_assoc. cbn [app expect N.eqb Pos.eqb].
  rewrite dec_string_esc by (rewrite app_length; lia). cbn [rev app expect N.eqb Pos.eqb].
  rewrite dec_number_decimal by (assumption || reflexivity). cbn [expect N.eqb Pos.eqb].
  rewrite dec_number_decimal by (assumption || reflexivity). cbn [expect N.eqb Pos.eqb].
  now rewrite Ep.
Qed.

Lemma enc_json_entry_head e : exists tl, enc_json_entry e = 34%N :: tl.
Proof. destruct e as [n [p|]]; eexists; reflexivity. Qed.

Lemma join_comma_cons {A} (f : A -> bytes) e m r :
  join_comma (map f (e :: m)) ++ r =
  f e ++ match m with [] => r | _ => 44%N :: join_comma (map f m) ++ r end.
Proof. destruct m; [reflexivity|]. cbn [map join_comma]. now rewrite <- !app_assoc. Qed.

Lemma dec_json_entries_enc : forall m e k acc, Forall entry_ok (e :: m) -> (length m < k)%nat ->
  dec_json_entries k (join_comma (map enc_json_entry (e :: m)) ++ [125%N]) acc = Some (rev acc ++ e :: m).
Proof.
  induction m as [|e' m IH]; intros [n p] k acc Hm Hk; inversion Hm as [|? ? He Hm']; subst;
    (destruct k as [|k]; [inversion Hk|]); rewrite join_comma_cons; cbn [dec_json_entries];
    rewrite dec_json_entry_enc by assumption; cbv iota.
  - reflexivity.
  - rewrite IH by (assumption || (simpl in Hk; lia)). cbn [rev]. now rewrite <- app_assoc.
Qed.

Lemma join_comma_length m : (length m <= length (join_comma (map enc_json_entry m)))%nat.
Proof.
  induction m as [|e m IH]; [simpl; lia|].
  rewrite <- (app_nil_r (join_comma _)), join_comma_cons, app_length.
  destruct (enc_json_entry_head e) as (tl & ->). destruct m; [simpl; lia|].
  rewrite app_nil_r. simpl in *. lia.
Qed.

Theorem dec_json_enc m : Forall entry_ok m -> dec_json (enc_json m) = Some m.
Proof.
  intros Hm. unfold enc_json. destruct m as [|e m]; [reflexivity|]. cbn [app].
  pose proof (join_comma_cons enc_json_entry e m [125%N]) as E.
  destruct (enc_json_entry_head e) as (tl & Ee). rewrite Ee in E. cbn [app] in E. rewrite E.
  change (dec_json (123%N :: 34%N :: ?x)) with (dec_json_entries (S (length (34%N :: x))) (34%N :: x) []).
  rewrite <- E, dec_json_entries_enc; [reflexivity|assumption|].
  pose proof (join_comma_length (e :: m)). rewrite app_length. simpl length in *. lia.
Qed.

Lemma blen_enc_root m off : blen (enc_root m off) = roots_len + blen (enc_json m).
Proof.
  unfold enc_root. rewrite !blen_app, !blen_be. change (blen magic_beg) with 6.
  change (blen magic_end) with 6. change roots_len with 44. lia.
Qed.

Lemma root_at_gen f size j m :
  dec_json j = Some m -> 0 < blen j -> 0 <= size <= blen f -> size < two63 ->
  roots_len + blen j < two32 ->
  let len := roots_len + blen j in
  let r := magic_beg ++ magic_beg ++ be 4 version ++ be 4 len ++ j ++ be 8 size ++ be 4 len ++
           magic_end ++ magic_end in
  root_at (write_at f size r) (size + blen r) = Some m.
Proof.
  intros Hj Hjl Hs Hs63 Hlen len r.
  set (h := magic_beg ++ magic_beg ++ be 4 version ++ be 4 len ++ j).
  set (t := be 8 size ++ be 4 len ++ magic_end ++ magic_end).
  assert (Hbh : blen h = len - 24).
  { subst h len. rewrite !blen_app, !blen_be, roots_len_eq. change (blen magic_beg) with 6. lia. }
  (* the fields of [h] and [t] have literal widths: r is h ++ t, and each field is found, by computation *)
  pose proof (read_write_same f size r Hs) as Hr.
  change r with (h ++ t) in Hr |- *. apply read_at_split in Hr as [Hh Ht].
  rewrite blen_app, Hbh in *. change (blen t) with 24 in *.
  pose proof (eq_refl : len = roots_len + blen j) as El. clearbody len.
  unfold root_at. change roots_end_len with 24. rewrite two63_eq, two32_eq, roots_len_eq in *.
  rewrite Zleb_f, Z.sub_add, <- Z.add_sub_assoc, Ht by lia.
  change (sub t 0 8) with (be 8 size). change (sub t 8 4) with (be 4 len).
  change (sub t 12 6) with magic_end. change (sub t 18 6) with magic_end.
  rewrite beq_refl, !de_be, Z.add_simpl_l, Hh by (rewrite ?pow256_4, ?pow256_8; lia).
  change (sub h 0 6) with magic_beg. change (sub h 6 6) with magic_beg.
  change (sub h 12 4) with (be 4 version). change (sub h 16 4) with (be 4 len). change (skipn 20 h) with j.
  rewrite beq_refl, !de_be, !Zltb_t, Z.mod_small, !Z.eqb_refl by (rewrite ?pow256_4; unfold version; lia).
  exact Hj.
Qed.

Lemma blen_enc_json_pos m : 0 < blen (enc_json m).
Proof. unfold enc_json. rewrite !blen_app. cbn [app]. rewrite !blen_cons. pose proof (blen_nonneg (join_comma (map enc_json_entry m))). rewrite blen_nil. lia. Qed.

Theorem root_at_enc f size m :
  Forall entry_ok m -> 0 <= size <= blen f -> size < two63 ->
  blen (enc_root m size) < two32 ->
  let r := enc_root m size in root_at (write_at f size r) (size + blen r) = Some m.
Proof.
  intros Hm Hs Hs63 Hl. rewrite blen_enc_root in Hl.
  exact (root_at_gen f size (enc_json m) m (dec_json_enc m Hm) (blen_enc_json_pos m) Hs Hs63 Hl).
Qed.
