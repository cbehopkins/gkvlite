(* LazySeq3More.v — a Flush inside a run (LazySeq3.v) is invisible to the read lists of a whole LIST of
   lookups / GetTotals that follow it and to the read list of one whole visit, but not to the call AFTER such a visit
   (the visit evicts the flushed items it touched). *)
From GK Require Import Base Treap TreapSpec Store Codec CodecProofs Disk DiskProofs Lazy LazyProofs LazyVisit LazyMut LazyMutProofs
  LazySeq LazySeqProofs LazySeq2 LazySeq2Proofs DStoreRefine LazySeq3 LazySeq3Proofs.
From Coq Require Import Lia ZArith NArith List Bool.
Import ListNotations.
Open Scope Z_scope.

Definition lookup_op2 (o : sop2) : bool :=
  match o with S1 (SGet _ _) | S1 (SMin _) | S1 (SMax _) | STot => true | _ => false end.

Lemma cs_set_same name : forall cs t, cs_get name cs = Some t -> cs_set name t cs = cs.
Proof.
  induction cs as [|[n t0] cs IH]; intros t Hg; [reflexivity|].
  cbn [cs_get] in Hg. cbn [cs_set].
  destruct (cmp_bytes name n); [inversion Hg; reflexivity| |]; rewrite (IH t Hg); reflexivity.
Qed.

Lemma sstep3_lookup2 cmp name s o t : cs_get name (ss_colls s) = Some t -> lookup_op2 o = true ->
  sstep3 cmp name s (S2 o) =
  (fst (vreads (ss_mem s) (touches2 cmp t o)),
   mkSst (ss_file s) (ss_size s) (ss_colls s) (snd (vreads (ss_mem s) (touches2 cmp t o)))).
Proof.
  intros Hg Hl. rewrite (sstep3_S2 cmp name s o t Hg).
  destruct o as [[]| | |]; try discriminate Hl; cbn [step_tree evicted2];
    rewrite evict_nil, (cs_set_same name _ _ Hg); reflexivity.
Qed.

Section Sim2.
Variable size : Z.
Variables FI FN : Z -> Prop.
Hypothesis FI_ge : forall o, FI o -> size <= o.

Lemma sstep3_lookup2_sim cmp name s' s o : lookup_op2 o = true -> ssim size FI FN name s' s ->
  fst (sstep3 cmp name s' (S2 o)) = fst (sstep3 cmp name s (S2 o)) /\
  ssim size FI FN name (snd (sstep3 cmp name s' (S2 o))) (snd (sstep3 cmp name s (S2 o))).
Proof.
  intros Hl [Hrel Hms]. unfold ssim in *.
  destruct (cs_get name (ss_colls s)) as [t|] eqn:Hg.
  - destruct Hrel as (t' & Hg' & Hfl & Hold).
    rewrite (sstep3_lookup2 cmp name s' o t' Hg' Hl), (sstep3_lookup2 cmp name s o t Hg Hl).
    cbn [fst snd ss_colls ss_mem].
    assert (Hn : nomut o = true) by (destruct o as [[]| | |]; try discriminate Hl; reflexivity).
    destruct (vreads_sim size FI FN FI_ge _ _ (touches2_sim size FI FN cmp o t t' Hn Hfl Hold) _ _ Hms) as [E1 E2].
    split; [exact E1|]. split; [|exact E2].
    rewrite Hg. exists t'. split; [exact Hg'|]. split; assumption.
  - unfold sstep3. rewrite Hg, Hrel. cbn [fst snd]. split; [reflexivity|].
    rewrite Hg. split; assumption.
Qed.

Lemma lookups_sim cmp name : forall ops s' s, forallb lookup_op2 ops = true -> ssim size FI FN name s' s ->
  srun3 cmp name s' (map S2 ops) = srun3 cmp name s (map S2 ops).
Proof.
  induction ops as [|o r IH]; intros s' s Hall Hs; [reflexivity|].
  cbn [forallb] in Hall. apply andb_prop in Hall. destruct Hall as [H1 H2].
  cbn [map]. rewrite !srun3_cons.
  destruct (sstep3_lookup2_sim cmp name s' s o H1 Hs) as [E1 E2].
  rewrite E1. f_equal. apply IH; assumption.
Qed.

End Sim2.

Theorem lookups_after_flush_same_reads : forall cmp name s ops,
  (forall t, cs_get name (ss_colls s) = Some t -> rep (ss_file s) t /\ below t (ss_size s)) ->
  forallb lookup_op2 ops = true ->
  srun3 cmp name (snd (sstep3 cmp name s SFlush)) (map S2 ops) = srun3 cmp name s (map S2 ops).
Proof.
  intros cmp name s ops Hrb Hall.
  destruct (flush_ssim cmp name s Hrb) as (FI & FN & HFI & Hs).
  exact (lookups_sim (ss_size s) FI FN HFI cmp name ops _ _ Hall Hs).
Qed.
Print Assumptions lookups_after_flush_same_reads.

Theorem visit_after_flush_same_reads : forall cmp name s asc target wv b,
  (forall t, cs_get name (ss_colls s) = Some t -> rep (ss_file s) t /\ below t (ss_size s)) ->
  fst (sstep3 cmp name (snd (sstep3 cmp name s SFlush)) (S2 (SVis asc target wv b))) =
  fst (sstep3 cmp name s (S2 (SVis asc target wv b))).
Proof. intros cmp name s asc target wv b Hrb. apply call_after_flush_same_reads; [exact Hrb|reflexivity]. Qed.
Print Assumptions visit_after_flush_same_reads.

(* the list form cannot be extended to sequences containing visits.  The state: ex3_file re-opened, then SetItem "c"
   (so the tree has an item without a location, and is represented below the size).  After a Flush the visit
   touches the flushed item (in memory, nothing read) and evicts it, so the Get that follows reads it back at the
   offset the Flush gave it (205); without the Flush the item has no location and is never read. *)

Definition ex4_ops : list sop3 := [S2 (SVis true [] false 10%nat); S2 (S1 (SGet [99%N] true))].

Example visit_after_flush_then_lookup_rereads :
  exists cmp name s asc target wv b k wv',
    (forall t, cs_get name (ss_colls s) = Some t -> rep (ss_file s) t /\ below t (ss_size s)) /\
    srun3 cmp name (snd (sstep3 cmp name s SFlush)) [S2 (SVis asc target wv b); S2 (S1 (SGet k wv'))] <>
    srun3 cmp name s [S2 (SVis asc target wv b); S2 (S1 (SGet k wv'))].
Proof.
  destruct seq3_example_inv as (s0 & Hs0 & Hinv & _).
  rewrite ex3_start in Hs0. inversion Hs0; subst s0; clear Hs0.
  apply (sstep3_inv cmp_bytes ex3_name _ (S2 (S1 (SSet [99%N] [7%N] 5)))) in Hinv;
    [|reflexivity|exact I|vm_compute; reflexivity].
  eexists cmp_bytes, ex3_name, _, true, [], false, 10%nat, [99%N], true. split.
  - intros t Hg. destruct (inv3_get ex3_name _ t Hinv Hg) as (A & B & _). split; assumption.
  - vm_compute. intro H. discriminate H.
Qed.
Print Assumptions visit_after_flush_then_lookup_rereads.

Example visit_after_flush_then_lookup_rereads_values :
  option_map (fun s0 =>
    let s := snd (sstep3 cmp_bytes ex3_name s0 (S2 (S1 (SSet [99%N] [7%N] 5)))) in
    (srun3 cmp_bytes ex3_name (snd (sstep3 cmp_bytes ex3_name s SFlush)) ex4_ops, srun3 cmp_bytes ex3_name s ex4_ops))
    (seq3_start ex3_file) =
  Some ([[Rd 0 16; Rd 16 1]; [Rd 18 16; Rd 34 1; Rd 205 16; Rd 221 1; Rd 205 16; Rd 221 1; Rd 222 1]],
        [[Rd 0 16; Rd 16 1]; [Rd 18 16; Rd 34 1]]).
Proof. rewrite ex3_start. vm_compute. reflexivity. Qed.
Print Assumptions visit_after_flush_then_lookup_rereads_values.
