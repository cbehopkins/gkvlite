(* store.go checkAndReadRoots and scanBackwardsForMagicEnd against Codec.root_at and Disk.scan: the recorded offset with
   the length it implies; the backward scan gives up at size <= rootsLen, tests the two MagicEnd copies at offsets 12 and
   18 of the 24-byte trailer, and otherwise moves down by exactly one byte. *)
From GK Require Import Base Treap Codec Blocks GExpr Generated DecBase GExprFacts.
From Coq Require Import ZArith NArith List String Bool Lia.
Import ListNotations.
Open Scope string_scope.
Open Scope list_scope.
Open Scope Z_scope.

Theorem root_offset_decision :
  exists c, decisions "Store.checkAndReadRoots" "offset" = [c] /\
    forall offset size len len32 : Z,
      let rho := upd (upd (upd (upd (upd env0 "offset" offset) "atomic.LoadInt64(&s.size)" size) "rootsLen" roots_len)
                          "length" len) "uint32((atomic.LoadInt64(&s.size)-offset))" len32 in
      gtrue rho c = Some ((offset >=? 0) && (offset <? size - roots_len) && (len =? len32)).
Proof.
  eexists. split; [vm_compute; reflexivity|]. intros offset size len len32 rho. gsimpl.
  destruct (offset >=? 0); destruct (offset <? size - 44); destruct (len =? len32); reflexivity.
Qed.

Theorem scan_stop_decision :
  exists c, hd_error (conds 400 scan_loop) = Some c /\
    forall size : Z, gtrue (upd (upd env0 "atomic.LoadInt64(&s.size)" size) "rootsLen" roots_len) c = Some (size <=? roots_len).
Proof. eexists. split; [vm_compute; reflexivity|]. intro size. apply gtrue_b2z. reflexivity. Qed.

Theorem scan_step_is_one : last scan_loop (SOther "") = SExpr (GCall "atomic.AddInt64" [GUn "&" (GVar "s.size"); GInt (-1)]).
Proof. vm_compute. reflexivity. Qed.

(* the fourth condition of the loop, after the size test, defaultToEmpty and the ReadAt error check *)
Theorem scan_magic_offsets :
  exists c, nth_error (conds 400 scan_loop) 3 = Some c /\
    c = GBin "&&" (GCall "bytes.Equal" [GVar "MagicEnd"; GCall "[:]" [GVar "rootsEnd"; GInt 12; GBin "+" (GInt 12) (GCall "len" [GVar "MagicEnd"])]])
                  (GCall "bytes.Equal" [GVar "MagicEnd"; GCall "[:]" [GVar "rootsEnd"; GBin "+" (GInt 12) (GCall "len" [GVar "MagicEnd"]); GNil]]) /\
    geval (upd env0 "len(MagicEnd)" (Z.of_nat (List.length g_magic_end))) (GBin "+" (GInt 12) (GCall "len" [GVar "MagicEnd"])) = Some 18 /\
    roots_end_len = 24.
Proof. eexists. split; [vm_compute; reflexivity|]. split; [reflexivity|]. split; reflexivity. Qed.

