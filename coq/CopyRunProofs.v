(* Store.CopyTo, seen as the history CopyRun.copy_ops of calls on the destination store: the history
   registers every name once, every call succeeds, the destination ends up with exactly the source's
   collections and items, nothing is left unflushed when flushEvery > 0, and the byte-level store gives
   the same answers. *)
From GK Require Import Base Order Treap TreapSpec Store StoreSpec StoreRefine Codec CodecProofs Disk DiskProofs DStore DStoreRefine CopyTo CopyRun.
From Coq Require Import Lia ZArith NArith List Bool Sorted.
Import ListNotations.

(* what the source looks like to CopyTo: names strictly ascending (bytewise), every collection's items strictly
   ascending under its comparator, every item valid for SetItem *)
Definition src_ok (src : list src_coll) : Prop :=
  StronglySorted (fun a b => cmp_bytes (fst (fst a)) (fst (fst b)) = Lt) src /\
  Forall (fun c => let '(name, cmpid, items) := c in
            (cmpid < 4)%nat /\
            StronglySorted (fun a b => cmp_of cmpid (ikey a) (ikey b) = Lt) items /\
            Forall (fun it => valid_item (ikey it) (Some (ival it)) (iprio it) = true) items) src.

Definition names_below (ks : list bytes) (n : bytes) : Prop := Forall (fun k => cmp_bytes k n = Lt) ks.

(* the tree CopyTo builds for one collection, and the destination's entry for it *)
Definition tree_of (id : nat) (items : list item) : tree :=
  fold_left (fun t it => insert (cmp_of id) t it) items E.

Definition mkc (c : src_coll) : bytes * coll :=
  (fst (fst c), mkColl (snd (fst c)) (tree_of (snd (fst c)) (snd c))).

Lemma ssorted_sorted : forall cmp l,
  StronglySorted (fun a b => cmp (ikey a) (ikey b) = Lt) l -> sorted cmp l.
Proof.
  intros cmp l H. induction H as [|a l Hs IH Hf]; cbn [sorted]; [exact I|].
  split; [exact Hf | exact IH].
Qed.

Lemma src_ok_parts : forall src, src_ok src ->
  StronglySorted (fun a b => cmp_bytes (fst (fst a)) (fst (fst b)) = Lt) src /\
  Forall (fun c => Forall item_valid (snd c)) src /\
  Forall (fun c => sorted (cmp_of (snd (fst c))) (snd c)) src.
Proof.
  intros src [Hs Hf]. split; [exact Hs|].
  split; (eapply Forall_impl; [|exact Hf]); intros [[n id] items] (_ & H1 & H2); cbn [fst snd].
  - exact H2.
  - apply ssorted_sorted. exact H1.
Qed.

Lemma names_below_snoc {A} : forall (m : list (bytes * A)) n c n', names_below (map fst m) n' -> cmp_bytes n n' = Lt ->
  names_below (map fst (m ++ [(n, c)])) n'.
Proof.
  intros m n c n' H1 H2. unfold names_below. rewrite map_app. apply Forall_app. split; [exact H1|].
  constructor; [exact H2 | constructor].
Qed.

Lemma step_coll_new : forall cur fl reg name id, cget cur name = None ->
  step (mkStore true cur fl reg) (OColl name id) =
  (mkStore true (cset cur name (mkColl id E)) fl (cset reg name id), ROk).
Proof.
  intros cur fl reg name id H. unfold step. cbv beta iota zeta.
  cbn [s_file s_cur s_flushed s_cmpreg]. rewrite H. reflexivity.
Qed.

Lemma step_set_valid : forall cur fl reg name c it, cget cur name = Some c -> item_valid it ->
  step (mkStore true cur fl reg) (OSet name (ikey it) (Some (ival it)) (iprio it)) =
  (mkStore true (cset cur name (mkColl (c_cmp c) (insert (cmp_of (c_cmp c)) (c_tree c) it))) fl reg, ROk).
Proof.
  intros cur fl reg name c [k v p] H Hv. unfold item_valid in Hv. cbn [ikey ival iprio] in *.
  unfold step. cbv beta iota zeta. cbn [s_file s_cur s_flushed s_cmpreg]. rewrite H.
  rewrite (set_item_spec _ _ _ _ _ Hv). unfold with_cur. cbn [s_file s_cur s_flushed s_cmpreg].
  reflexivity.
Qed.

Lemma step_flush_file : forall cur fl reg,
  step (mkStore true cur fl reg) OFlush = (mkStore true cur (cur :: fl) reg, ROk).
Proof. reflexivity. Qed.

(* a piece of history all of whose calls answer ROk and that leads to the collections cur' *)
Definition good (s : store) (ops : list op) (cur' : colls) : Prop :=
  Forall (fun o => o = ROk) (run s ops) /\
  exists fl' reg', exec s ops = mkStore true cur' fl' reg'.

Lemma good_nil : forall cur fl reg, good (mkStore true cur fl reg) [] cur.
Proof. intros. split; [constructor|]. do 2 eexists. reflexivity. Qed.

Lemma good_cons : forall s o s' ops cur', step s o = (s', ROk) -> good s' ops cur' ->
  good s (o :: ops) cur'.
Proof.
  intros s o s' ops cur' Hs [H1 H2]. split.
  - cbn [run]. rewrite Hs. constructor; [reflexivity | exact H1].
  - cbn [exec]. rewrite Hs. exact H2.
Qed.

Lemma good_app : forall s a b cur1 cur2, good s a cur1 ->
  (forall fl reg, good (mkStore true cur1 fl reg) b cur2) -> good s (a ++ b) cur2.
Proof.
  intros s a b cur1 cur2 [H1 (fl & reg & H2)] Hb. destruct (Hb fl reg) as [H3 H4]. split.
  - rewrite run_app, H2. apply Forall_app. split; assumption.
  - rewrite exec_app, H2. exact H4.
Qed.

Lemma items_good : forall fe name id items cur t fl reg i, Forall item_valid items ->
  good (mkStore true (cset cur name (mkColl id t)) fl reg) (copy_items name items fe i)
       (cset cur name (mkColl id (fold_left (fun t it => insert (cmp_of id) t it) items t))).
Proof.
  intros fe name id. induction items as [|it items IH]; intros cur t fl reg i Hv.
  - apply good_nil.
  - inversion Hv as [|? ? Hit Hv']; subst. cbn [copy_items fold_left].
    eapply good_cons.
    + rewrite (step_set_valid _ _ _ name (mkColl id t) it); [|apply cget_cset_same|exact Hit].
      cbn [c_cmp c_tree]. rewrite cset_cset_same. reflexivity.
    + destruct ((0 <? fe)%nat && (S i mod fe =? 0)%nat); cbn [app].
      * eapply good_cons; [apply step_flush_file|]. apply IH; exact Hv'.
      * apply IH; exact Hv'.
Qed.

Lemma coll_good : forall fe c pre fl reg,
  names_below (map fst pre) (fst (fst c)) -> Forall item_valid (snd c) ->
  good (mkStore true pre fl reg) (copy_coll fe c) (pre ++ [mkc c]).
Proof.
  intros fe [[name id] items] pre fl reg Hb Hv. cbn [fst snd] in Hb, Hv.
  unfold copy_coll, mkc, tree_of. cbn [fst snd]. rewrite <- cset_below by exact Hb.
  eapply good_cons; [apply step_coll_new, cget_below, Hb|]. apply items_good. exact Hv.
Qed.

Lemma src_good : forall fe src pre fl reg,
  Forall (fun c => names_below (map fst pre) (fst (fst c))) src ->
  StronglySorted (fun a b => cmp_bytes (fst (fst a)) (fst (fst b)) = Lt) src ->
  Forall (fun c => Forall item_valid (snd c)) src ->
  good (mkStore true pre fl reg) (flat_map (copy_coll fe) src) (pre ++ map mkc src).
Proof.
  intros fe. induction src as [|c src IH]; intros pre fl reg Hb Hs Hv.
  - cbn [flat_map map]. rewrite app_nil_r. apply good_nil.
  - cbn [flat_map map]. inversion Hb as [|? ? Hbc Hb']; subst. inversion Hv as [|? ? Hvc Hv']; subst.
    apply StronglySorted_inv in Hs. destruct Hs as [Hs Hlt].
    eapply good_app; [exact (coll_good fe c pre fl reg Hbc Hvc)|].
    intros fl' reg'.
    replace (pre ++ mkc c :: map mkc src) with ((pre ++ [mkc c]) ++ map mkc src)
      by (rewrite <- app_assoc; reflexivity).
    apply IH; [|exact Hs|exact Hv'].
    rewrite Forall_forall in *. intros c' Hin.
    unfold mkc at 1. apply names_below_snoc; [apply Hb'; exact Hin | apply Hlt; exact Hin].
Qed.

(* all collections, from the empty destination; then the closing Flush *)
Lemma flat_good : forall src n, src_ok src ->
  good (init true) (flat_map (copy_coll n) src) (map mkc src).
Proof.
  intros src n Hok. destruct (src_ok_parts _ Hok) as (Hs & Hv & _).
  apply (src_good n src [] [] []); [|exact Hs|exact Hv].
  apply Forall_forall. intros c _. constructor.
Qed.

Lemma copy_good : forall src fe, src_ok src ->
  good (init true) (copy_ops src fe) (map mkc src).
Proof.
  intros src fe Hok. unfold copy_ops.
  eapply good_app; [apply flat_good; exact Hok|].
  intros fl reg. destruct (0 <? fe)%Z; [|apply good_nil].
  eapply good_cons; [apply step_flush_file | apply good_nil].
Qed.

(* what the destination's entry for a source collection contains *)
Lemma mkc_contents : forall c, sorted (cmp_of (snd (fst c))) (snd c) ->
  (fst (mkc c), c_cmp (snd (mkc c)), elems (c_tree (snd (mkc c)))) = c.
Proof.
  intros [[name id] items] Hs. cbn [fst snd] in Hs. unfold mkc, tree_of. cbn [fst snd c_cmp c_tree].
  destruct (fold_insert_gen (cmp_of id) (cmp_of_laws id) items E I Hs) as [He _].
  cbn zeta in He. rewrite He. reflexivity.
Qed.

(* a name is registered once, with one comparator *)
Lemma ops_ok_items : forall fe name items i reg rest,
  ops_ok reg rest -> ops_ok reg (copy_items name items fe i ++ rest).
Proof.
  intros fe name. induction items as [|it items IH]; intros i reg rest H; [exact H|].
  cbn [copy_items app ops_ok].
  destruct ((0 <? fe)%nat && (S i mod fe =? 0)%nat); cbn [app ops_ok]; apply IH; exact H.
Qed.

Lemma ops_ok_src : forall fe tail, (forall reg, ops_ok reg tail) -> forall src reg,
  Forall (fun c => names_below (map fst reg) (fst (fst c))) src ->
  StronglySorted (fun a b => cmp_bytes (fst (fst a)) (fst (fst b)) = Lt) src ->
  ops_ok reg (flat_map (copy_coll fe) src ++ tail).
Proof.
  intros fe tail Ht. induction src as [|[[name id] items] src IH]; intros reg Hb Hs.
  - cbn [flat_map app]. apply Ht.
  - cbn [flat_map copy_coll]. inversion Hb as [|? ? Hbc Hb']; subst. cbn [fst snd] in *.
    apply StronglySorted_inv in Hs. destruct Hs as [Hs Hlt].
    rewrite <- app_assoc. cbn [app ops_ok]. split.
    + left. apply cget_below. exact Hbc.
    + apply ops_ok_items. rewrite cset_below by exact Hbc. apply IH; [|exact Hs].
      rewrite Forall_forall in *. intros c' Hin.
      apply names_below_snoc; [apply Hb'; exact Hin | apply (Hlt c' Hin)].
Qed.

Theorem copy_ops_ok : forall src fe, src_ok src -> ops_ok [] (copy_ops src fe).
Proof.
  intros src fe Hok. destruct (src_ok_parts _ Hok) as (Hs & _ & _).
  unfold copy_ops. apply ops_ok_src; [| |exact Hs].
  - intro reg. destruct (0 <? fe)%Z; exact I.
  - apply Forall_forall. intros c _. constructor.
Qed.
Print Assumptions copy_ops_ok.

Theorem copy_all_ok : forall src fe, src_ok src ->
  Forall (fun o => o = ROk) (run (init true) (copy_ops src fe)).
Proof. intros src fe Hok. exact (proj1 (copy_good src fe Hok)). Qed.
Print Assumptions copy_all_ok.

(* the destination ends up with exactly the source's collections (same names, same comparators) and, in
   each, exactly the source's items (keys, values, priorities) *)
Theorem copy_contents : forall src fe, src_ok src ->
  let s := fold_left (fun s o => fst (step s o)) (copy_ops src fe) (init true) in
  map (fun nc => (fst nc, c_cmp (snd nc), elems (c_tree (snd nc)))) (s_cur s) = src.
Proof.
  intros src fe Hok s. destruct (copy_good src fe Hok) as [_ (fl & reg & Hf)].
  subst s. rewrite <- exec_fold, Hf. cbn [s_cur].
  destruct (src_ok_parts _ Hok) as (_ & _ & Hso).
  rewrite map_map. rewrite <- (map_id src) at 2. apply map_ext_in.
  intros c Hin. rewrite Forall_forall in Hso. apply mkc_contents. apply Hso. exact Hin.
Qed.
Print Assumptions copy_contents.

(* with flushEvery > 0 that state is the last flushed state: nothing is left unflushed.
   Store.step's OFlush stores the collections unchanged, so plain equality holds ... *)
Theorem copy_flushed_eq : forall src fe, src_ok src -> (0 < fe)%Z ->
  let s := fold_left (fun s o => fst (step s o)) (copy_ops src fe) (init true) in
  exists rest, s_flushed s = s_cur s :: rest.
Proof.
  intros src fe Hok Hfe s. subst s. rewrite <- exec_fold.
  unfold copy_ops. apply Z.ltb_lt in Hfe. rewrite Hfe, exec_app.
  destruct (flat_good src (Z.to_nat fe) Hok) as [_ (fl & reg & Hf)]. rewrite Hf.
  cbn [exec]. rewrite step_flush_file. cbn [fst s_flushed s_cur].
  exists fl. reflexivity.
Qed.
Print Assumptions copy_flushed_eq.

(* ... and therefore the statement up to persisted locations *)
Theorem copy_flushed : forall src fe, src_ok src -> (0 < fe)%Z ->
  let s := fold_left (fun s o => fst (step s o)) (copy_ops src fe) (init true) in
  exists st rest, s_flushed s = st :: rest /\ ecolls st = ecolls (s_cur s).
Proof.
  intros src fe Hok Hfe s. destruct (copy_flushed_eq src fe Hok Hfe) as [rest H].
  exists (s_cur s), rest. split; [exact H | reflexivity].
Qed.
Print Assumptions copy_flushed.

(* the byte-level store gives the answers of the abstract one *)
Theorem copy_bytes_agree : forall src fe,
  ops_ok [] (copy_ops src fe) -> history_ok (copy_ops src fe) ->
  fst (copy_result src fe) = run (init true) (copy_ops src fe).
Proof.
  intros src fe Hops Hh. unfold copy_result. cbn [fst].
  apply dstore_refines_store_exact; assumption.
Qed.
Print Assumptions copy_bytes_agree.

(* with copy_ops_ok and copy_all_ok: for a src_ok source whose history meets the byte-level side conditions,
   every call on the byte-level destination succeeds *)
Corollary copy_bytes_all_ok : forall src fe, src_ok src -> history_ok (copy_ops src fe) ->
  Forall (fun o => o = ROk) (fst (copy_result src fe)).
Proof.
  intros src fe Hok Hh. rewrite (copy_bytes_agree src fe (copy_ops_ok src fe Hok) Hh).
  apply copy_all_ok. exact Hok.
Qed.
Print Assumptions copy_bytes_all_ok.

(* two collections; the second uses comparator 1 (reversed order) and lists its items ascending under it *)
Definition ex_src : list src_coll :=
  [ ([97]%N, 0%nat,
     [ mkItem [107; 49]%N [118; 49]%N 5; mkItem [107; 50]%N [118]%N 3; mkItem [107; 51]%N [118; 0; 255]%N 9 ]);
    ([98]%N, 1%nat,
     [ mkItem [122]%N [1]%N 2; mkItem [109]%N [2; 3]%N 4 ]) ].

Lemma ex_src_ok : src_ok ex_src.
Proof. split; repeat constructor. Qed.

Example ex_copy : exists src, src_ok src /\ (2 <= length src)%nat /\ history_ok (copy_ops src 2) /\
  Forall (fun o => o = ROk) (fst (copy_result src 2)).
Proof.
  exists ex_src. split; [exact ex_src_ok|]. split; [cbn; lia|].
  assert (Hh : history_ok (copy_ops ex_src 2)) by (vm_compute; reflexivity).
  split; [exact Hh|]. apply copy_bytes_all_ok; [exact ex_src_ok | exact Hh].
Qed.
Print Assumptions ex_copy.

(* the history of the example, and what the theorems say about it, computed *)
Example ex_copy_history : copy_ops ex_src 2 =
  [ OColl [97]%N 0; OSet [97]%N [107; 49]%N (Some [118; 49]%N) 5; OSet [97]%N [107; 50]%N (Some [118]%N) 3; OFlush;
    OSet [97]%N [107; 51]%N (Some [118; 0; 255]%N) 9;
    OColl [98]%N 1; OSet [98]%N [122]%N (Some [1]%N) 2; OSet [98]%N [109]%N (Some [2; 3]%N) 4; OFlush;
    OFlush ].
Proof. vm_compute. reflexivity. Qed.
