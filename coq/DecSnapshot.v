(* Store.Snapshot, and the read-only guards of the mutating functions (C04, C15). *)
From GK Require Import Base Treap Codec Blocks GExpr Generated DecBase.
From Coq Require Import ZArith NArith List String Bool Lia.
Import ListNotations.
Open Scope string_scope.
Open Scope list_scope.
Open Scope Z_scope.

(* Snapshot = Proto's snapshot: a read-only store with the SAME callbacks, file and lock objects, holding for every
   collection (in name order) one more reference on its current version *)
Theorem snapshot_function :
  body "Store.Snapshot" =
    [SAssign [GVar "coll"] ":=" [GCall "copyColl" [GUn "*" (GCall "s.getColl" [])]];
     SAssign [GVar "res"] ":="
       [GUn "&" (GOther "Store{  coll:  &coll,  file:  s.file,  size:  atomic.LoadInt64(&s.size),  readOnly: true,  callbacks: s.callbacks, }")];
     SRange (GVar "_") (GVar "name") (GCall "collNames" [GVar "coll"])
       [SAssign [GVar "collOrig"] ":=" [GCall "[]" [GVar "coll"; GVar "name"]];
        SAssign [GCall "[]" [GVar "coll"; GVar "name"]] "="
          [GUn "&" (GOther "Collection{  store:  res,  compare: collOrig.compare,  rootLock: collOrig.rootLock,  root:  collOrig.rootAddRef(), }")]];
     SReturn [GVar "res"]].
Proof. vm_compute. reflexivity. Qed.

(* mutations and Flush are refused on a read-only store, Flush also without a file (MStore.snapshot_refuses) *)
Theorem readonly_refuses :
  hd_error (conds 400 (body "Collection.SetItem")) = Some (GVar "t.store.readOnly") /\
  hd_error (conds 400 (body "Collection.Delete")) = Some (GVar "t.store.readOnly") /\
  hd_error (conds 400 (body "Store.Flush")) = Some (GVar "s.readOnly") /\
  nth_error (conds 400 (body "Store.Flush")) 1 = Some (GBin "==" (GVar "s.file") GNil) /\
  (forall f, In f ["Collection.SetItem"; "Collection.Delete"; "Store.Flush"] ->
     match body f with SIf [] _ (SReturn _ :: _) [] :: _ => True | _ => False end).
Proof.
  repeat apply conj; [vm_compute; reflexivity..|].
  intros f [<-|[<-|[<-|[]]]]; vm_compute; exact I.
Qed.

