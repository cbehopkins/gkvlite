(* The reclaim marks.  A mutation marks the nodes it replaces; when it fails, unmarkReclaimable must clear EVERY
   mark it left, wherever it is (union marks a node only after both recursive calls returned, so marked nodes can
   sit below an unmarked one): it walks the whole loaded tree, taking the lock for each node and releasing it
   before it descends. *)
From GK Require Import Base Treap Codec Blocks GExpr Generated DecBase.
From Coq Require Import ZArith NArith List String Bool Lia.
Import ListNotations.
Open Scope string_scope.
Open Scope list_scope.
Open Scope Z_scope.

Theorem unmark_walks_the_whole_tree :
  body "Collection.unmarkReclaimable" =
    [SIf [] (GCall "nloc.isEmpty" []) [SReturn []] [];
     SAssign [GVar "n"] ":=" [GCall "nloc.Node" []];
     SIf [] (GBin "==" (GVar "n") GNil) [SReturn []] [];
     SExpr (GCall "t.rootLock.Lock" []);
     SIf [] (GBin "==" (GVar "n.next") (GVar "reclaimMark")) [SAssign [GVar "n.next"] "=" [GNil]] [];
     SExpr (GCall "t.rootLock.Unlock" []);
     SExpr (GCall "t.unmarkReclaimable" [GUn "&" (GVar "n.left"); GVar "reclaimMark"]);
     SExpr (GCall "t.unmarkReclaimable" [GUn "&" (GVar "n.right"); GVar "reclaimMark"])] /\
  body "Collection.markReclaimable" =
    [SExpr (GCall "t.rootLock.Lock" []);
     SDefer (GCall "t.rootLock.Unlock" []);
     SIf [] (GBin "||" (GBin "||" (GBin "==" (GVar "n") GNil) (GBin "!=" (GVar "n.next") GNil))
                       (GBin "==" (GVar "n") (GVar "reclaimMark")))
       [SReturn []] [];
     SAssign [GVar "n.next"] "=" [GVar "reclaimMark"]].
Proof. split; vm_compute; reflexivity. Qed.
