(* Store.Flush, writeRoots and collNames: the ways out of Flush, the order of WriteAt and size update in writeRoots,
   the order in which Flush pins and writes the collections (C02, C03, C05). *)
From GK Require Import Base Treap Codec Blocks GExpr Generated DecBase GExprFacts.
From Coq Require Import ZArith NArith List String Bool Lia.
Import ListNotations.
Open Scope string_scope.
Open Scope list_scope.
Open Scope Z_scope.

(* Flush: after its two guards and the write loop's error check there is no other way out: it always ends by writing
   the root record, for the versions it pinned (rnls), not for the live collections *)
Theorem flush_always_writes_roots :
  conds 400 (body "Store.Flush") = [GVar "s.readOnly"; GBin "==" (GVar "s.file") GNil; GBin "!=" (GVar "err") GNil] /\
  last (body "Store.Flush") (SOther "") = SReturn [GCall "s.writeRoots" [GVar "rnls"]] /\
  hd (SOther "") (body "Store.writeRoots") = SAssign [GVar "sJSON"; GVar "err"] ":=" [GCall "json.Marshal" [GVar "rnls"]] /\
  before "c.rootAddRef" "coll[name].write" (call_list "Store.Flush") = true /\
  before "coll[name].write" "s.writeRoots" (call_list "Store.Flush") = true.
Proof. repeat apply conj; vm_compute; reflexivity. Qed.

(* every condition of writeRoots is an error check: nothing else can skip the WriteAt or the size update, and size
   moves only after the WriteAt *)
Theorem write_roots_order :
  Forall (fun c => c = GBin "!=" (GVar "err") GNil) (conds 400 (body "Store.writeRoots")) /\
  before "s.file.WriteAt" "atomic.StoreInt64" (call_list "Store.writeRoots") = true.
Proof. split; [vm_compute; repeat constructor | vm_compute; reflexivity]. Qed.

Theorem flush_pins_in_name_order :
  In (SAssign [GVar "cnames"] ":=" [GCall "collNames" [GVar "coll"]]) (body "Store.Flush") /\
  (exists b1 b2, ranges (body "Store.Flush") = [(GVar "cnames", b1); (GVar "cnames", b2)] /\
                 In "c.rootAddRef" (calls 50 b1) /\ In "coll[name].write" (calls 50 b2)) /\
  (exists pre, body "collNames" = pre ++ [SExpr (GCall "sort.Strings" [GVar "res"]); SReturn [GVar "res"]]).
Proof.
  split; [find_in (assigns (fun l => String.eqb (gshow l) "cnames"))|]. split.
  - do 2 eexists. split; [vm_compute; reflexivity|].
    split; [find_in (String.eqb "c.rootAddRef") | find_in (String.eqb "coll[name].write")].
  - eexists [_; _]. vm_compute. reflexivity.
Qed.

