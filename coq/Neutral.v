(* Neutral.v — property C17: behaviourally neutral callbacks.
   The harness installs an ItemValWrite callback that writes the value in
   chunks and an ItemValRead callback that reads it in chunks; both are
   indistinguishable from the single WriteAt / ReadAt of the default path. *)
From GK Require Import Base Treap Codec CodecProofs.

(* split [b] into consecutive pieces of [k] bytes (the last may be shorter);
   [fuel] bounds the number of pieces, [length b] is always enough when 1 <= k *)
Fixpoint chunks (k : nat) (fuel : nat) (b : bytes) : list bytes :=
  match fuel with
  | O => []
  | S fuel' =>
    match b with
    | [] => []
    | _ :: _ => firstn k b :: chunks k fuel' (skipn k b)
    end
  end.

Fixpoint write_chunks (f : file) (off : Z) (cs : list bytes) : file :=
  match cs with
  | [] => f
  | c :: cs' => write_chunks (write_at f off c) (off + blen c) cs'
  end.

(* read consecutive pieces of the given lengths and concatenate them *)
Fixpoint read_chunks (f : file) (off : Z) (lens : list Z) : option bytes :=
  match lens with
  | [] => Some []
  | n :: lens' =>
    match read_at f off n with
    | None => None
    | Some b =>
      match read_chunks f (off + n) lens' with
      | None => None
      | Some bs => Some (b ++ bs)
      end
    end
  end.

Definition zsum (l : list Z) : Z := fold_right Z.add 0 l.

(* the harness's neutral BeforeItemWrite / AfterItemRead return the item they were given, its ItemValLength is
   len(Item.Val) (harness/callbacks.go, neutralCallbacks) *)
Definition before_write_id (it : item) : item := it.
Definition after_read_id (it : item) : item := it.
Definition item_val_length (it : item) : Z := blen (ival it).

Lemma concat_chunks : forall k fuel b, (1 <= k)%nat -> (length b <= fuel)%nat ->
  concat (chunks k fuel b) = b.
Proof.
  intros k fuel b Hk. revert b. induction fuel as [|fuel IH]; intros b Hl.
  - destruct b; [reflexivity | cbn in Hl; lia].
  - destruct b as [|x b]; [reflexivity|].
    cbn [chunks concat]. rewrite IH.
    + apply firstn_skipn.
    + rewrite skipn_length. cbn [length] in *. lia.
Qed.

(* the pieces are non-empty and at most [k] bytes long *)
Lemma chunks_sizes : forall k, (1 <= k)%nat -> forall fuel b,
  Forall (fun c => (1 <= length c <= k)%nat) (chunks k fuel b).
Proof.
  intros k Hk. induction fuel as [|fuel IH]; intro b; cbn [chunks]; [constructor|].
  destruct b as [|x b]; constructor.
  - rewrite firstn_length. cbn [length]. lia.
  - apply IH.
Qed.

(* a piece that is followed by another is exactly [k] bytes long (stated for the first piece;
   the rest is [chunks] of the remainder) *)
Lemma chunks_full : forall k, (1 <= k)%nat -> forall fuel b c cs c' cs',
  chunks k fuel b = c :: cs -> cs = c' :: cs' -> length c = k.
Proof.
  intros k Hk fuel b c cs c' cs' H1 H2. destruct fuel as [|fuel]; [discriminate|].
  cbn [chunks] in H1. destruct b as [|x b]; [discriminate|].
  injection H1 as H1 H3. subst c.
  destruct (Nat.le_gt_cases k (length (x :: b))) as [Hle|Hgt].
  - apply firstn_length_le. exact Hle.
  - rewrite skipn_all2 in H3 by lia. subst cs.
    destruct fuel; discriminate.
Qed.

Lemma write_at_nil : forall f off, write_at f off [] = f.
Proof.
  intros f off. unfold write_at. cbn [app length]. rewrite Nat.add_0_r. apply firstn_skipn.
Qed.

Theorem write_chunks_whole : forall cs f off, 0 <= off <= blen f ->
  write_chunks f off cs = write_at f off (concat cs).
Proof.
  induction cs as [|c cs IH]; intros f off Hoff; cbn [write_chunks concat].
  - symmetry. apply write_at_nil.
  - rewrite IH.
    + apply write_at_app. apply Hoff.
    + rewrite blen_write_at by exact Hoff. pose proof (blen_nonneg c). lia.
Qed.

Theorem chunked_write_neutral : forall k f off v, (1 <= k)%nat -> 0 <= off <= blen f ->
  write_chunks f off (chunks k (length v) v) = write_at f off v.
Proof.
  intros k f off v Hk Hoff. rewrite write_chunks_whole by exact Hoff.
  rewrite concat_chunks by auto. reflexivity.
Qed.

Lemma zsum_nonneg : forall lens, Forall (fun n => 0 <= n) lens -> 0 <= zsum lens.
Proof.
  induction 1 as [|n lens Hn _ IH]; cbn [zsum fold_right]; [lia|]. fold (zsum lens). lia.
Qed.

(* The lengths must be non-negative: a negative length makes read_at return
   Some [] and moves the offset backwards, e.g. lens = [-1; 2] on a file
   [x0; x1; x2] at offset 1 reads [x0; x1] although read_at f 1 1 = Some [x1]
   (read_chunks_negative below). *)
Theorem read_chunks_whole : forall lens f off b,
  Forall (fun n => 0 <= n) lens ->
  read_at f off (zsum lens) = Some b -> read_chunks f off lens = Some b.
Proof.
  induction lens as [|n lens IH]; intros f off b Hl Hr.
  - cbn [zsum fold_right] in Hr. rewrite read_at_0 in Hr. exact Hr.
  - inversion Hl as [|? ? Hn Hl']; subst.
    change (zsum (n :: lens)) with (n + zsum lens) in Hr.
    pose proof (zsum_nonneg lens Hl') as Hs.
    pose proof (read_at_length _ _ _ _ Hr) as Hlen.
    (* the first n bytes of b, then the rest *)
    pose proof (read_sub _ _ _ _ 0 n Hr) as H1. rewrite Z.add_0_r in H1.
    cbn [read_chunks].
    rewrite H1, (IH _ _ _ Hl' (read_sub _ _ _ _ n _ Hr Hn (Z.le_refl _) Hs)) by lia.
    f_equal. unfold sub. cbn [skipn].
    rewrite (firstn_all2 (skipn (Z.to_nat n) b)) by (rewrite skipn_length; lia). apply firstn_skipn.
Qed.

Example read_chunks_negative :
  let f := [10; 11; 12]%N in
  read_at f 1 (zsum [-1; 2]) = Some [11%N] /\ read_chunks f 1 [-1; 2] = Some [10; 11]%N.
Proof. split; reflexivity. Qed.

Corollary read_chunks_whole_pos : forall lens f off b,
  Forall (fun n => 0 < n) lens ->
  read_at f off (zsum lens) = Some b -> read_chunks f off lens = Some b.
Proof.
  intros lens f off b Hl. apply read_chunks_whole.
  eapply Forall_impl; [|exact Hl]. cbn. intros; lia.
Qed.

Lemma zsum_map_blen : forall cs, zsum (map blen cs) = blen (concat cs).
Proof.
  induction cs as [|c cs IH]; [reflexivity|].
  cbn [map zsum fold_right concat]. fold (zsum (map blen cs)). rewrite IH, blen_app. reflexivity.
Qed.

(* reading back in chunks what was written in chunks (chunk sizes need not agree) *)
Theorem chunked_read_write_neutral : forall k k' f off v,
  (1 <= k)%nat -> (1 <= k')%nat -> 0 <= off <= blen f ->
  read_chunks (write_chunks f off (chunks k (length v) v)) off
              (map blen (chunks k' (length v) v)) = Some v.
Proof.
  intros k k' f off v Hk Hk' Hoff.
  rewrite chunked_write_neutral by assumption.
  apply read_chunks_whole.
  - apply Forall_map, Forall_forall. intros c _. apply blen_nonneg.
  - rewrite zsum_map_blen, concat_chunks by auto.
    apply read_write_same. exact Hoff.
Qed.

Lemma before_write_id_neutral : forall it, enc_item (before_write_id it) = enc_item it.
Proof. reflexivity. Qed.

Lemma after_read_id_neutral : forall f l, option_map after_read_id (dec_item f l) = dec_item f l.
Proof. intros f l. destruct (dec_item f l); reflexivity. Qed.

(* ItemValLength = blen (ival it) is what the header stores as valLength *)
Lemma item_val_length_hdr : forall it,
  enc_item_hdr it =
  be 4 (item_hdr_len + blen (ikey it) + item_val_length it) ++ be 4 (blen (ikey it)) ++
  be 4 (item_val_length it) ++ be 4 (iprio it mod two32).
Proof. reflexivity. Qed.

Lemma item_val_length_field : forall it,
  sub (enc_item_hdr it) 8 4 = be 4 (item_val_length it).
Proof.
  intro it. unfold enc_item_hdr, item_val_length.
  pose proof (hdr_fields (item_hdr_len + blen (ikey it) + blen (ival it)) (blen (ikey it))
                (blen (ival it)) (iprio it mod two32)) as H.
  cbv zeta in H. tauto.
Qed.

(* and decodes back to it when it fits in 32 bits *)
Lemma item_val_length_decoded : forall it, item_val_length it < two32 ->
  de (sub (enc_item_hdr it) 8 4) = item_val_length it.
Proof.
  intros it H. rewrite item_val_length_field. apply de_be.
  rewrite pow256_4. unfold item_val_length in *. pose proof (blen_nonneg (ival it)).
  rewrite two32_eq in H. lia.
Qed.
