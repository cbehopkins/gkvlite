(* StoreRefine.v — Store.run (named collections of treaps) refines
   StoreSpec.srun (named collections of sorted lists); laws of the
   collection map (C12) and the invalid-item law (C01).
   The file opens with the library of association lists sorted by name
   (keys_sorted / names_sorted, cget / cset / cdel, kmap, call), which
   CopyRunProofs, HeapHistory, DStoreRefine and DFaultRefineAux take from here. *)
From GK Require Import Base Order Treap TreapSpec Store StoreSpec.

Fixpoint keys_sorted (l : list bytes) : Prop :=
  match l with
  | [] => True
  | k :: l' => Forall (fun k' => cmp_bytes k k' = Lt) l' /\ keys_sorted l'
  end.

Definition names_sorted {A} (m : list (bytes * A)) : Prop := keys_sorted (map fst m).

Lemma names_sorted_nil : forall A, names_sorted (@nil (bytes * A)).
Proof. intro A. exact I. Qed.

Lemma keys_sorted_NoDup : forall l, keys_sorted l -> NoDup l.
Proof.
  induction l as [|k l IH]; intros H; [constructor|].
  destruct H as [H1 H2]. constructor; [|auto].
  intro Hin. rewrite Forall_forall in H1. specialize (H1 _ Hin).
  rewrite cmp_bytes_refl in H1. discriminate H1.
Qed.

Lemma cmp_bytes_neq_sym : forall a b, cmp_bytes a b <> Eq -> cmp_bytes b a <> Eq.
Proof.
  intros a b H H'. apply cmp_bytes_eq in H'. subst. apply H. apply cmp_bytes_refl.
Qed.

Section Assoc.
Context {A : Type}.
Implicit Types (m : list (bytes * A)) (n : bytes) (c : A).

Lemma cget_cset : forall m n n' c,
  cget (cset m n c) n' = match cmp_bytes n' n with Eq => Some c | _ => cget m n' end.
Proof.
  induction m as [|[k v] m IH]; intros n n' c; cbn [cset cget]; [reflexivity|].
  destruct (cmp_bytes n k) eqn:E; cbn [cget].
  - apply cmp_bytes_eq in E. subst k. destruct (cmp_bytes n' n); reflexivity.
  - reflexivity.
  - rewrite IH. destruct (cmp_bytes n' n) eqn:E'; [|reflexivity..].
    apply cmp_bytes_eq in E'. subst n'. rewrite E. reflexivity.
Qed.

Lemma cget_cset_same : forall m n c, cget (cset m n c) n = Some c.
Proof. intros. rewrite cget_cset, cmp_bytes_refl. reflexivity. Qed.

Lemma cget_cset_other : forall m n n' c, cmp_bytes n' n <> Eq ->
  cget (cset m n c) n' = cget m n'.
Proof. intros m n n' c H. rewrite cget_cset. destruct (cmp_bytes n' n); congruence. Qed.

Lemma cget_cdel_other : forall m n n', cmp_bytes n' n <> Eq ->
  cget (cdel m n) n' = cget m n'.
Proof.
  induction m as [|[k v] m IH]; intros n n' H; cbn [cdel cget]; auto.
  destruct (cmp_bytes n k) eqn:E; cbn [cget]; [|destruct (cmp_bytes n' k); auto..].
  apply cmp_bytes_eq in E. subst k. destruct (cmp_bytes n' n); congruence.
Qed.

Lemma cget_all_gt : forall m n,
  Forall (fun k' => cmp_bytes n k' = Lt) (map fst m) -> cget m n = None.
Proof.
  induction m as [|[k v] m IH]; intros n H; cbn [cget]; auto.
  cbn [map fst] in H. inversion H; subst. rewrite H2. auto.
Qed.

Lemma cget_cdel_same : forall m n, names_sorted m -> cget (cdel m n) n = None.
Proof.
  unfold names_sorted.
  induction m as [|[k v] m IH]; intros n H; cbn [cdel cget]; auto.
  cbn [map fst keys_sorted] in H. destruct H as [H1 H2].
  destruct (cmp_bytes n k) eqn:E; cbn [cget]; [|rewrite E; auto..].
  apply cmp_bytes_eq in E. subst k. apply cget_all_gt. exact H1.
Qed.

Lemma cget_In : forall m n c, cget m n = Some c -> In (n, c) m.
Proof.
  induction m as [|[k v] m IH]; intros n c; cbn [cget]; [discriminate|].
  destruct (cmp_bytes n k) eqn:E; intro H; [|right; auto..].
  apply cmp_bytes_eq in E. subst k. left. congruence.
Qed.

Lemma In_cget : forall m n c, names_sorted m -> In (n, c) m -> cget m n = Some c.
Proof.
  unfold names_sorted.
  induction m as [|[k v] m IH]; intros n c Hs Hin; [destruct Hin|].
  cbn [map fst keys_sorted] in Hs. destruct Hs as [H1 H2]. cbn [cget].
  destruct Hin as [Heq|Hin].
  - inversion Heq; subst. rewrite cmp_bytes_refl. reflexivity.
  - rewrite Forall_forall in H1.
    rewrite (cmp_lt_gt _ cmp_bytes_laws _ _ (H1 n (in_map fst _ _ Hin))). apply IH; assumption.
Qed.

Lemma Forall_cset (P : bytes * A -> Prop) : forall m n c,
  Forall P m -> P (n, c) -> Forall P (cset m n c).
Proof.
  induction m as [|[k v] m IH]; intros n c H Hn; cbn [cset].
  - constructor; auto.
  - inversion H; subst. destruct (cmp_bytes n k); repeat constructor; auto.
Qed.

Lemma Forall_cdel (P : bytes * A -> Prop) : forall m n, Forall P m -> Forall P (cdel m n).
Proof.
  induction m as [|[k v] m IH]; intros n H; cbn [cdel]; auto.
  inversion H; subst. destruct (cmp_bytes n k); auto.
Qed.

(* a name above every name of m *)
Lemma cget_below : forall m n, Forall (fun k => cmp_bytes k n = Lt) (map fst m) -> cget m n = None.
Proof.
  induction m as [|[k v] m IH]; intros n H; cbn [cget]; auto.
  cbn [map fst] in H. inversion H; subst.
  rewrite (cmp_lt_gt _ cmp_bytes_laws _ _ H2). auto.
Qed.

Lemma cset_below : forall m n c, Forall (fun k => cmp_bytes k n = Lt) (map fst m) -> cset m n c = m ++ [(n, c)].
Proof.
  induction m as [|[k v] m IH]; intros n c H; cbn [cset app]; auto.
  cbn [map fst] in H. inversion H; subst.
  rewrite (cmp_lt_gt _ cmp_bytes_laws _ _ H2), IH by assumption. reflexivity.
Qed.

Lemma cset_cset_same : forall m n c c', cset (cset m n c) n c' = cset m n c'.
Proof.
  induction m as [|[k v] m IH]; intros n c c'; cbn [cset].
  - rewrite cmp_bytes_refl. reflexivity.
  - destruct (cmp_bytes n k) eqn:E; cbn [cset]; rewrite ?cmp_bytes_refl, ?E, ?IH; reflexivity.
Qed.

Lemma cset_sorted : forall m n c, names_sorted m -> names_sorted (cset m n c).
Proof.
  unfold names_sorted.
  induction m as [|[k v] m IH]; intros n c H; cbn [cset map fst keys_sorted].
  - split; [constructor | exact I].
  - cbn [map fst keys_sorted] in H. destruct H as [H1 H2].
    destruct (cmp_bytes n k) eqn:E; cbn [map fst keys_sorted].
    + apply cmp_bytes_eq in E. subst k. split; assumption.
    + split; [|split; assumption].
      constructor; [exact E|].
      eapply Forall_impl; [|exact H1]. intros a Ha.
      eapply cmp_bytes_lt_trans; eauto.
    + split; [|apply IH; assumption].
      rewrite Forall_map in H1 |- *. apply Forall_cset; [exact H1|].
      apply (cmp_gt_lt _ cmp_bytes_laws). exact E.
Qed.

Lemma cdel_sorted : forall m n, names_sorted m -> names_sorted (cdel m n).
Proof.
  unfold names_sorted.
  induction m as [|[k v] m IH]; intros n H; cbn [cdel map fst keys_sorted]; auto.
  cbn [map fst keys_sorted] in H. destruct H as [H1 H2].
  destruct (cmp_bytes n k) eqn:E; cbn [map fst keys_sorted]; auto;
    (split; [rewrite Forall_map in H1 |- *; apply Forall_cdel, H1 | apply IH; assumption]).
Qed.

End Assoc.

(* every binding of an association list satisfies P; the second conjunct of colls_wf and
   HeapHistory.heap_colls are instances, written out *)
Definition call {A} (P : bytes -> A -> Prop) (m : list (bytes * A)) : Prop :=
  forall n c, cget m n = Some c -> P n c.

Lemma call_cset {A} (P : bytes -> A -> Prop) m n c : call P m -> P n c -> call P (cset m n c).
Proof.
  intros Hm Hc n' c' G. rewrite cget_cset in G. destruct (cmp_bytes n' n) eqn:E; auto.
  apply cmp_bytes_eq in E. injection G as <-. subst n'. exact Hc.
Qed.

Lemma call_cdel {A} (P : bytes -> A -> Prop) (m : list (bytes * A)) n :
  names_sorted m -> call P m -> call P (cdel m n).
Proof.
  intros Hs Hm n' c' G.
  destruct (cmp_bytes n' n) eqn:E; [|rewrite cget_cdel_other in G by congruence; auto..].
  apply cmp_bytes_eq in E. subst n'. rewrite cget_cdel_same in G by exact Hs. discriminate.
Qed.

Lemma hd_Forall {A} (P : A -> Prop) d l : P d -> Forall P l -> P (hd d l).
Proof. intros Hd [|x l' Hx _]; assumption. Qed.

Lemma tl_Forall : forall A (P : A -> Prop) (l : list A), Forall P l -> Forall P (tl l).
Proof. intros A P [|x l] H; [constructor|]. inversion H; assumption. Qed.

Section AssocMap.
Context {A B : Type}.
Variable g : bytes -> A -> B.

Definition kmap (m : list (bytes * A)) : list (bytes * B) :=
  map (fun nc => (fst nc, g (fst nc) (snd nc))) m.

Lemma kmap_fst : forall m, map fst (kmap m) = map fst m.
Proof.
  unfold kmap. intro m. rewrite map_map. apply map_ext. reflexivity.
Qed.

Lemma cget_kmap : forall m n, cget (kmap m) n = option_map (g n) (cget m n).
Proof.
  unfold kmap.
  induction m as [|[k v] m IH]; intro n; cbn [map cget fst snd]; auto.
  destruct (cmp_bytes n k) eqn:E; auto.
  apply cmp_bytes_eq in E. subst k. reflexivity.
Qed.

Lemma call_kmap : forall (P : bytes -> B -> Prop) m, call (fun n a => P n (g n a)) m -> call P (kmap m).
Proof.
  intros P m H n c G. rewrite cget_kmap in G.
  destruct (cget m n) as [a|] eqn:G0; inversion G; subst c. exact (H n a G0).
Qed.

Lemma kmap_sorted : forall m, names_sorted m -> names_sorted (kmap m).
Proof. intro m. unfold names_sorted. rewrite kmap_fst. auto. Qed.

End AssocMap.

Section AssocMapConst.
Context {A B : Type}.
Variable f : A -> B.

Lemma kmap_cset : forall (m : list (bytes * A)) n c,
  kmap (fun _ => f) (cset m n c) = cset (kmap (fun _ => f) m) n (f c).
Proof.
  unfold kmap.
  induction m as [|[k v] m IH]; intros n c; cbn [cset map fst snd]; auto.
  destruct (cmp_bytes n k); cbn [map fst snd]; auto.
  rewrite IH. reflexivity.
Qed.

Lemma kmap_cdel : forall (m : list (bytes * A)) n,
  kmap (fun _ => f) (cdel m n) = cdel (kmap (fun _ => f) m) n.
Proof.
  unfold kmap.
  induction m as [|[k v] m IH]; intros n; cbn [cdel map fst snd]; auto.
  destruct (cmp_bytes n k); cbn [map fst snd]; rewrite ?IH; reflexivity.
Qed.

End AssocMapConst.

Definition abs_coll (c : coll) : scoll := mkSColl (c_cmp c) (elems (c_tree c)).

Lemma abs_colls_kmap : forall cs, abs_colls cs = kmap (fun _ => abs_coll) cs.
Proof. reflexivity. Qed.

Lemma cget_abs_colls : forall cs n,
  cget (abs_colls cs) n = option_map abs_coll (cget cs n).
Proof. intros. exact (cget_kmap (fun _ => abs_coll) cs n). Qed.

Definition regval (reg : list (bytes * nat)) (n : bytes) : nat :=
  match cget reg n with Some i => i | None => O end.

Lemma recmp_kmap : forall reg cs,
  recmp reg cs = kmap (fun n c => mkColl (regval reg n) (c_tree c)) cs.
Proof. reflexivity. Qed.

Lemma srecmp_kmap : forall reg cs,
  srecmp reg cs = kmap (fun n c => mkSColl (regval reg n) (sc_items c)) cs.
Proof. reflexivity. Qed.

Lemma abs_colls_recmp : forall reg cs,
  abs_colls (recmp reg cs) = srecmp reg (abs_colls cs).
Proof.
  intros reg cs. rewrite recmp_kmap, srecmp_kmap, abs_colls_kmap, (abs_colls_kmap cs).
  unfold kmap. rewrite !map_map. reflexivity.
Qed.

Definition coll_wf (c : coll) : Prop :=
  bst (cmp_of (c_cmp c)) (c_tree c) /\ aggs (c_tree c).

Definition colls_wf (reg : list (bytes * nat)) (cs : colls) : Prop :=
  names_sorted cs /\
  forall n c, cget cs n = Some c -> coll_wf c /\ cget reg n = Some (c_cmp c).

Definition wf (s : store) : Prop :=
  colls_wf (s_cmpreg s) (s_cur s) /\ Forall (colls_wf (s_cmpreg s)) (s_flushed s).

Lemma colls_wf_nil : forall reg, colls_wf reg [].
Proof. intro reg. split; [exact I|]. intros n c H. discriminate H. Qed.

Theorem wf_init : forall f, wf (init f).
Proof. intro f. split; [apply colls_wf_nil | constructor]. Qed.

Lemma colls_wf_cset : forall reg cs n c,
  colls_wf reg cs -> coll_wf c -> cget reg n = Some (c_cmp c) ->
  colls_wf reg (cset cs n c).
Proof.
  intros reg cs n c [Hs Hc] Hw Hr. split; [apply cset_sorted; exact Hs|].
  apply (call_cset _ _ _ _ Hc). split; assumption.
Qed.

Lemma colls_wf_cdel : forall reg cs n, colls_wf reg cs -> colls_wf reg (cdel cs n).
Proof.
  intros reg cs n [Hs Hc]. split; [apply cdel_sorted | apply call_cdel]; assumption.
Qed.

(* registering (again) the comparator of a name, consistently *)
Lemma colls_wf_reg_cset : forall reg cs name id,
  (cget reg name = None \/ cget reg name = Some id) ->
  colls_wf reg cs -> colls_wf (cset reg name id) cs.
Proof.
  intros reg cs name id Hok [Hs Hc]. split; [exact Hs|].
  intros n c G. destruct (Hc n c G) as [Hw Hr]. split; [exact Hw|].
  rewrite cget_cset. destruct (cmp_bytes n name) eqn:E; [|exact Hr..].
  apply cmp_bytes_eq in E. subst n. destruct Hok; congruence.
Qed.

Lemma colls_wf_recmp : forall reg cs, colls_wf reg cs -> colls_wf reg (recmp reg cs).
Proof.
  intros reg cs [Hs Hc]. rewrite recmp_kmap. split; [apply kmap_sorted; exact Hs|].
  apply call_kmap. intros n c G. destruct (Hc n c G) as [Hw Hr].
  unfold regval. rewrite Hr. split; [exact Hw | reflexivity].
Qed.

Lemma filter_map_comm : forall A B (f : A -> B) (p : B -> bool) (l : list A),
  filter p (map f l) = map f (filter (fun x => p (f x)) l).
Proof.
  induction l as [|x l IH]; cbn [map filter]; auto.
  destruct (p (f x)); cbn [map]; rewrite IH; reflexivity.
Qed.

Lemma erase_deliveries : forall (keep : item -> bool) (b : nat) (D : list (item * Z)),
  map (fun x => (fst x, 0)) (firstn b (filter (fun x => keep (fst x)) D)) =
  map (fun i => (i, 0)) (firstn b (filter keep (map fst D))).
Proof.
  intros keep b D.
  rewrite filter_map_comm, firstn_map, map_map. reflexivity.
Qed.

Lemma visit_refines : forall id t asc target stop,
  bst (cmp_of id) t ->
  map (fun x => (fst x, 0))
      (fst (fst (visit (cmp_of id) asc t target 0 (visit_budget t stop)))) =
  map (fun i => (i, 0))
      (firstn (S (sbudget (elems t) stop))
         (if asc then filter (asc_keep (cmp_of id) target) (elems t)
          else filter (desc_keep (cmp_of id) target) (rev (elems t)))).
Proof.
  intros id t asc target stop Hb.
  assert (visit_budget t stop = sbudget (elems t) stop) as ->.
  { unfold visit_budget, sbudget. destruct stop; auto. apply size_elems. }
  destruct asc.
  - rewrite (visit_asc_spec _ (cmp_of_laws id) t Hb), <- (depths_elems t 0).
    apply (erase_deliveries (asc_keep (cmp_of id) target)).
  - rewrite (visit_desc_spec _ (cmp_of_laws id) t Hb), <- (depths_elems t 0), <- map_rev.
    apply (erase_deliveries (desc_keep (cmp_of id) target)).
Qed.

Lemma coll_eta : forall c, mkColl (c_cmp c) (c_tree c) = c.
Proof. intros [i t]. reflexivity. Qed.

(* What one operation does to the state: nothing, or one of seven updates.
   Invariants of the state are proved by inversion of [step_chg], without
   unfolding [step]. *)
Inductive chg (s : store) : op -> store -> Prop :=
| chg_same o : match o with OColl _ _ => False | _ => True end -> chg s o s
| chg_coll n id : chg s (OColl n id)
    (mkStore (s_file s)
       (cset (s_cur s) n (mkColl id (match cget (s_cur s) n with Some c => c_tree c | None => E end)))
       (s_flushed s) (cset (s_cmpreg s) n id))
| chg_rm n : chg s (ORmColl n) (with_cur s (cdel (s_cur s) n))
| chg_set n c key v prio : cget (s_cur s) n = Some c -> valid_item key (Some v) prio = true ->
    chg s (OSet n key (Some v) prio)
      (with_cur s (cset (s_cur s) n
         (mkColl (c_cmp c) (insert (cmp_of (c_cmp c)) (c_tree c) (mkItem key v prio)))))
| chg_del n c key : cget (s_cur s) n = Some c ->
    chg s (ODel n key)
      (with_cur s (cset (s_cur s) n
         (mkColl (c_cmp c) (fst (delete (cmp_of (c_cmp c)) (c_tree c) key)))))
| chg_flush : s_file s = true ->
    chg s OFlush (mkStore true (s_cur s) (s_cur s :: s_flushed s) (s_cmpreg s))
| chg_reopen : s_file s = true ->
    chg s OReopen (with_cur s (recmp (s_cmpreg s) (hd [] (s_flushed s))))
| chg_revert : s_file s = true ->
    chg s ORevert (mkStore true (recmp (s_cmpreg s) (hd [] (tl (s_flushed s))))
                     (tl (s_flushed s)) (s_cmpreg s)).

Lemma step_chg : forall s o, chg s o (fst (step s o)).
Proof.
  intros s o. unfold step.
  destruct o; cbv beta zeta;
    try (destruct (cget (s_cur s) name) as [c|] eqn:G; [|apply chg_same; exact I]); cbn [fst];
    try (apply chg_same; exact I).
  (* left: the operations that can change the state, and OVisit *)
  - (* OColl *) apply chg_coll.
  - (* ORmColl *) apply chg_rm.
  - (* OSet *) destruct val as [v|]; [|apply chg_same; exact I].
    destruct (valid_item key (Some v) prio) eqn:V.
    + rewrite (set_item_spec _ _ _ _ _ V). apply chg_set; assumption.
    + rewrite (set_item_invalid _ _ _ _ _ V). apply chg_same; exact I.
  - (* ODel *) generalize (chg_del s name c key G).
    destruct (delete (cmp_of (c_cmp c)) (c_tree c) key) as [t' b]. intro H. exact H.
  - (* OFlush *) destruct (s_file s) eqn:F; [apply chg_flush; exact F | apply chg_same; exact I].
  - (* OReopen *) destruct (s_file s) eqn:F; [apply chg_reopen; exact F | apply chg_same; exact I].
  - (* ORevert *) destruct (s_file s) eqn:F; [apply chg_revert; exact F | apply chg_same; exact I].
  - (* OVisit *) destruct (visit _ _ _ _ _ _) as [[d b1] k1]. apply chg_same; exact I.
Qed.

Lemma step_fst : forall s o s' r, step s o = (s', r) -> s' = fst (step s o).
Proof. intros s o s' r H. rewrite H. reflexivity. Qed.

Lemma step_wf : forall s o, wf s -> ops_ok (s_cmpreg s) [o] -> wf (fst (step s o)).
Proof.
  intros s o [Hc Hf] Hok.
  destruct (step_chg s o) as [o _|n id|n|n c key v prio G V|n c key G|F|F|F];
    unfold wf, with_cur; cbn [s_cur s_flushed s_cmpreg].
  - split; assumption.
  - destruct Hok as [Hok _]. split.
    + apply colls_wf_cset; [apply colls_wf_reg_cset; assumption| |apply cget_cset_same].
      cbn [c_cmp c_tree]. destruct (cget (s_cur s) n) as [c|] eqn:G; [|split; exact I].
      destruct (proj2 Hc _ _ G) as [Hw Hr].
      assert (id = c_cmp c) by (destruct Hok; congruence). subst id. exact Hw.
    + eapply Forall_impl; [|exact Hf]. intro a. apply colls_wf_reg_cset. exact Hok.
  - split; [apply colls_wf_cdel; exact Hc | exact Hf].
  - destruct (proj2 Hc _ _ G) as [[Hb Ha] Hr]. split; [|exact Hf].
    apply colls_wf_cset; [exact Hc| |exact Hr]. split; cbn [c_cmp c_tree].
    + apply insert_bst; [apply cmp_of_laws | exact Hb].
    + apply insert_aggs. exact Ha.
  - destruct (proj2 Hc _ _ G) as [[Hb Ha] Hr]. split; [|exact Hf].
    apply colls_wf_cset; [exact Hc| |exact Hr].
    destruct (delete_spec _ (cmp_of_laws (c_cmp c)) _ key _ _ Hb (surjective_pairing _)) as (_ & _ & Hb' & Ha' & _).
    split; cbn [c_cmp c_tree]; auto.
  - split; [exact Hc | constructor; assumption].
  - split; [|exact Hf]. apply colls_wf_recmp, hd_Forall; [apply colls_wf_nil | exact Hf].
  - apply tl_Forall in Hf. split; [|exact Hf]. apply colls_wf_recmp, hd_Forall; [apply colls_wf_nil | exact Hf].
Qed.

Definition is_visit (o : op) : bool :=
  match o with OVisit _ _ _ _ _ => true | _ => false end.

Lemma erase_idem : forall r, erase (erase r) = erase r.
Proof.
  intros [| | | | | | | | |l wv|]; try reflexivity.
  cbn [erase]. rewrite map_map. reflexivity.
Qed.

Ltac proj_cbn :=
  cbn [fst snd s_file s_cur s_flushed s_cmpreg ss_file ss_cur ss_flushed ss_cmpreg
       with_cur swith_cur abs_coll sc_cmp sc_items c_cmp c_tree option_map is_visit].

(* The specification makes the abstracted step, with the same answer; only the
   depths a visit reports are not in it.  Each case is the treap theorem for
   that operation. *)
Lemma step_refines_abs : forall s o, wf s ->
  sstep (abs s) o =
  (abs (fst (step s o)), if is_visit o then erase (snd (step s o)) else snd (step s o)).
Proof.
  intros [f cur fl reg] o [[_ Hc] _]. cbn [s_cur s_cmpreg] in Hc.
  unfold step, sstep, abs.
  destruct o; cbv beta zeta; proj_cbn.
  (* the operations that need their collection c (G : cget cur name = Some c; Hb, Ha : its tree is
     a search tree with exact aggregates); on a missing collection both sides answer RNoColl.
     OColl creates a missing collection, so the try fails on it and leaves it whole. *)
  all: try (rewrite cget_abs_colls; destruct (cget cur name) as [c|] eqn:G; proj_cbn;
            [destruct (proj1 (Hc _ _ G)) as [Hb Ha] | reflexivity]).
  - (* OColl *) rewrite (kmap_cset abs_coll), cget_abs_colls.
    destruct (cget cur name); reflexivity.
  - (* ORmColl *) rewrite (kmap_cdel abs_coll). reflexivity.
  - (* ONames *) rewrite (kmap_fst (fun _ => abs_coll)). reflexivity.
  - (* OSet *) destruct val as [v|]; [|reflexivity].
    destruct (valid_item key (Some v) prio) eqn:V.
    + rewrite (set_item_spec _ _ _ _ _ V). proj_cbn.
      rewrite (kmap_cset abs_coll). unfold abs_coll; cbn [c_cmp c_tree].
      rewrite (insert_elems _ (cmp_of_laws (c_cmp c)) _ _ Hb). reflexivity.
    + rewrite (set_item_invalid _ _ _ _ _ V). reflexivity.
  - (* ODel *) destruct (delete (cmp_of (c_cmp c)) (c_tree c) key) as [t' b] eqn:D.
    destruct (delete_spec _ (cmp_of_laws (c_cmp c)) _ _ _ _ Hb D) as (He & Hfind & _).
    proj_cbn. rewrite (kmap_cset abs_coll). unfold abs_coll; cbn [c_cmp c_tree].
    rewrite He, Hfind. reflexivity.
  - (* OGet *) rewrite (lookup_spec _ (cmp_of_laws (c_cmp c)) _ _ Hb). reflexivity.
  - (* OGetItem *) rewrite (lookup_spec _ (cmp_of_laws (c_cmp c)) _ _ Hb). reflexivity.
  - (* OExist *) rewrite (lookup_spec _ (cmp_of_laws (c_cmp c)) _ _ Hb). reflexivity.
  - (* OMin *) rewrite tmin_spec. reflexivity.
  - (* OMax *) rewrite tmax_spec. reflexivity.
  - (* OTotals *) rewrite (totals_exact _ Ha). reflexivity.
  - (* OFlush *) destruct f; reflexivity.
  - (* OEvict *) reflexivity.
  - (* OReopen *) destruct f; [|reflexivity]. proj_cbn.
    rewrite abs_colls_recmp. destruct fl; reflexivity.
  - (* ORevert *) destruct f; [|reflexivity]. proj_cbn.
    rewrite abs_colls_recmp. destruct fl as [|c0 [|c1 fl0]]; reflexivity.
  - (* OVisit *) rewrite <- (visit_refines (c_cmp c) (c_tree c) asc target stop Hb).
    destruct (visit _ _ _ _ _ _) as [[d b1] k1]. reflexivity.
  - (* OLen *) rewrite size_elems. reflexivity.
Qed.

Theorem step_refines : forall s o s' r,
  wf s -> ops_ok (s_cmpreg s) [o] -> step s o = (s', r) ->
  wf s' /\ exists r', sstep (abs s) o = (abs s', r') /\ erase r = erase r'.
Proof.
  intros s o s' r Hwf Hok Hstep. split.
  { rewrite (step_fst _ _ _ _ Hstep). apply step_wf; assumption. }
  eexists. split; [rewrite (step_refines_abs _ _ Hwf), Hstep; reflexivity|]. cbn [snd].
  destruct (is_visit o); [symmetry; apply erase_idem | reflexivity].
Qed.

(* for every operation but OVisit the answers agree exactly *)
Theorem step_refines_exact : forall s o s' r,
  wf s -> ops_ok (s_cmpreg s) [o] -> is_visit o = false -> step s o = (s', r) ->
  wf s' /\ sstep (abs s) o = (abs s', r).
Proof.
  intros s o s' r Hwf Hok Hv Hstep. split.
  - rewrite (step_fst _ _ _ _ Hstep). apply step_wf; assumption.
  - rewrite (step_refines_abs _ _ Hwf), Hstep, Hv. reflexivity.
Qed.

Lemma step_cmpreg : forall s o,
  s_cmpreg (fst (step s o)) = match o with
                              | OColl name id => cset (s_cmpreg s) name id
                              | _ => s_cmpreg s
                              end.
Proof.
  intros s o. destruct (step_chg s o); try reflexivity.
  destruct o; [contradiction | reflexivity..].
Qed.

Lemma ops_ok_step : forall s o ops s' r,
  ops_ok (s_cmpreg s) (o :: ops) -> step s o = (s', r) ->
  ops_ok (s_cmpreg s) [o] /\ ops_ok (s_cmpreg s') ops.
Proof.
  intros s o ops s' r Hok Hstep.
  rewrite (step_fst _ _ _ _ Hstep), step_cmpreg.
  destruct o; cbn [ops_ok] in Hok |- *; try (split; [exact I | exact Hok]).
  destruct Hok as [H1 H2]. split; [split; [exact H1 | exact I] | exact H2].
Qed.

Fixpoint exec (s : store) (ops : list op) : store :=
  match ops with
  | [] => s
  | o :: ops' => exec (fst (step s o)) ops'
  end.

Lemma exec_app : forall a b s, exec s (a ++ b) = exec (exec s a) b.
Proof. induction a as [|o a IH]; intros b s; [reflexivity|apply IH]. Qed.

Lemma exec_fold : forall ops s, exec s ops = fold_left (fun s o => fst (step s o)) ops s.
Proof. induction ops as [|o ops IH]; intro s; [reflexivity|apply IH]. Qed.

Lemma run_app : forall a b s, run s (a ++ b) = run s a ++ run (exec s a) b.
Proof.
  induction a as [|o a IH]; intros b s; [reflexivity|].
  cbn [app run exec]. destruct (step s o) as [s' r]. cbn [fst app].
  rewrite IH. reflexivity.
Qed.

Fixpoint sexec (s : sstore) (ops : list op) : sstore :=
  match ops with
  | [] => s
  | o :: ops' => sexec (fst (sstep s o)) ops'
  end.

(* every reachable state is well formed and abstracts to the state the
   specification reaches, and the answers along the way agree *)
Lemma run_exec_refines : forall ops s, wf s -> ops_ok (s_cmpreg s) ops ->
  wf (exec s ops) /\ abs (exec s ops) = sexec (abs s) ops /\
  map erase (run s ops) = map erase (srun (abs s) ops).
Proof.
  induction ops as [|o ops IH]; intros s Hwf Hok; [split; [exact Hwf | split; reflexivity]|].
  cbn [run srun exec sexec].
  destruct (step s o) as [s' r] eqn:Hstep.
  destruct (ops_ok_step _ _ _ _ _ Hok Hstep) as [Hok1 Hok2].
  destruct (step_refines _ _ _ _ Hwf Hok1 Hstep) as [Hwf' [r' [Hs He]]].
  rewrite Hs. cbn [fst map]. rewrite He.
  destruct (IH s' Hwf' Hok2) as (H1 & H2 & H3). rewrite H3. auto.
Qed.

Theorem run_wf : forall ops s, wf s -> ops_ok (s_cmpreg s) ops -> wf (exec s ops).
Proof. intros ops s Hwf Hok. apply run_exec_refines; assumption. Qed.

Theorem exec_refines : forall ops s, wf s -> ops_ok (s_cmpreg s) ops ->
  abs (exec s ops) = sexec (abs s) ops.
Proof. intros ops s Hwf Hok. apply run_exec_refines; assumption. Qed.

Theorem c01_refines_sorted_map : forall file ops, ops_ok [] ops ->
  map erase (run (init file) ops) = map erase (srun (sinit file) ops).
Proof.
  intros file ops Hok.
  change (sinit file) with (abs (init file)).
  apply run_exec_refines; [apply wf_init | exact Hok].
Qed.

(* [sstep] on a given constructor computes *)
Ltac sstep_at H := cbv beta iota zeta delta [sstep] in H.

Theorem c01_invalid_rejected : forall s n key val prio s' r,
  valid_item key val prio = false -> sstep s (OSet n key val prio) = (s', r) ->
  s' = s /\ (r = RErr \/ r = RNoColl).
Proof.
  intros s n key val prio s' r V H. sstep_at H.
  destruct (cget (ss_cur s) n) as [c|]; [destruct val as [v|]; [rewrite V in H|]|];
    injection H as <- <-; auto.
Qed.

Lemma ops_ok_app : forall ops1 ops2 reg, ops_ok reg (ops1 ++ ops2) -> ops_ok reg ops1.
Proof.
  induction ops1 as [|o ops1 IH]; intros ops2 reg H; [exact I|].
  cbn [app] in H. destruct o; cbn [ops_ok] in H |- *; try (eapply IH; exact H).
  destruct H as [H1 H2]. split; [exact H1 | eapply IH; exact H2].
Qed.

Corollary run_wf_prefix : forall ops1 ops2 s, wf s -> ops_ok (s_cmpreg s) (ops1 ++ ops2) ->
  wf (exec s ops1).
Proof.
  intros ops1 ops2 s Hwf Hok. apply run_wf; [exact Hwf|]. eapply ops_ok_app; exact Hok.
Qed.

(* what wf gives for the abstraction: every collection is a strictly sorted list under its comparator *)
Theorem wf_abs_sorted : forall s n c, wf s -> cget (ss_cur (abs s)) n = Some c ->
  sorted (cmp_of (sc_cmp c)) (sc_items c).
Proof.
  intros s n c [[_ Hc] _]. revert n c.
  apply (call_kmap (fun _ => abs_coll) (fun _ c => sorted (cmp_of (sc_cmp c)) (sc_items c)) (s_cur s)).
  intros n c G. destruct (Hc _ _ G) as [[Hb _] _].
  apply (bst_sorted _ (cmp_of_laws (c_cmp c))). exact Hb.
Qed.

(* well-formed specification states: the current collection map and every
   flushed one are sorted by name.  (The flushed ones are needed because
   OReopen / ORevert make a flushed map current.) *)
Definition swf (s : sstore) : Prop :=
  names_sorted (ss_cur s) /\ Forall (fun cs : scolls => names_sorted cs) (ss_flushed s).

(* with ss_cur alone required to be sorted, OReopen does not preserve the invariant *)
Example swf_cur_only_not_preserved :
  let s := mkSStore true [] [[([2%N], mkSColl 0 []); ([1%N], mkSColl 0 [])]] [] in
  names_sorted (ss_cur s) /\ ~ names_sorted (ss_cur (fst (sstep s OReopen))).
Proof.
  split; [exact I|]. cbn. intros [H _]. inversion H; subst. discriminate.
Qed.

Lemma swf_sinit : forall f, swf (sinit f).
Proof. intro f. split; [exact I | constructor]. Qed.

Lemma wf_swf : forall s, wf s -> swf (abs s).
Proof.
  intros s [[Hs _] Hf]. split; cbn [abs ss_cur ss_flushed].
  - apply (kmap_sorted (fun _ => abs_coll)). exact Hs.
  - apply Forall_map. eapply Forall_impl; [|exact Hf].
    intros cs [H _]. apply (kmap_sorted (fun _ => abs_coll)). exact H.
Qed.

Definition op_name (o : op) : option bytes :=
  match o with
  | OColl n _ | ORmColl n | OSet n _ _ _ | ODel n _ | OGet n _ | OGetItem n _ _
  | OExist n _ | OMin n _ | OMax n _ | OTotals n | OEvict n | OVisit _ n _ _ _
  | OLen n => Some n
  | ONames | OFlush | OReopen | ORevert => None
  end.

(* the specification's counterpart of [chg] *)
Inductive schg (s : sstore) : op -> sstore -> Prop :=
| schg_same o : match o with OColl _ _ => False | _ => True end -> schg s o s
| schg_coll n id : schg s (OColl n id)
    (mkSStore (ss_file s)
       (cset (ss_cur s) n (mkSColl id (match cget (ss_cur s) n with Some c => sc_items c | None => [] end)))
       (ss_flushed s) (cset (ss_cmpreg s) n id))
| schg_rm n : schg s (ORmColl n) (swith_cur s (cdel (ss_cur s) n))
| schg_item o n c : op_name o = Some n -> schg s o (swith_cur s (cset (ss_cur s) n c))
| schg_flush : ss_file s = true ->
    schg s OFlush (mkSStore true (ss_cur s) (ss_cur s :: ss_flushed s) (ss_cmpreg s))
| schg_reopen : ss_file s = true ->
    schg s OReopen (swith_cur s (srecmp (ss_cmpreg s) (hd [] (ss_flushed s))))
| schg_revert : ss_file s = true ->
    schg s ORevert (mkSStore true (srecmp (ss_cmpreg s) (hd [] (tl (ss_flushed s))))
                      (tl (ss_flushed s)) (ss_cmpreg s)).

Lemma sstep_schg : forall s o, schg s o (fst (sstep s o)).
Proof.
  intros s o. unfold sstep.
  destruct o; cbv beta zeta;
    try (destruct (cget (ss_cur s) name) as [c|] eqn:G; [|apply schg_same; exact I]); cbn [fst];
    try (apply schg_same; exact I).
  (* left: the operations that can change the state *)
  - (* OColl *) apply schg_coll.
  - (* ORmColl *) apply schg_rm.
  - (* OSet *) destruct val as [v|]; [|apply schg_same; exact I].
    destruct (valid_item key (Some v) prio); [|apply schg_same; exact I].
    apply schg_item. reflexivity.
  - (* ODel *) apply schg_item. reflexivity.
  - (* OFlush *) destruct (ss_file s) eqn:F; [apply schg_flush; exact F | apply schg_same; exact I].
  - (* OReopen *) destruct (ss_file s) eqn:F; [apply schg_reopen; exact F | apply schg_same; exact I].
  - (* ORevert *) destruct (ss_file s) eqn:F; [apply schg_revert; exact F | apply schg_same; exact I].
Qed.

Lemma sstep_fst : forall s o s' r, sstep s o = (s', r) -> s' = fst (sstep s o).
Proof. intros s o s' r H. rewrite H. reflexivity. Qed.

Theorem c12_new_empty : forall s n id s' r,
  cget (ss_cur s) n = None -> sstep s (OColl n id) = (s', r) ->
  cget (ss_cur s') n = Some (mkSColl id []).
Proof.
  intros s n id s' r G H. sstep_at H. injection H as <- _.
  cbn [ss_cur]. rewrite G. apply cget_cset_same.
Qed.

Theorem c12_existing_keeps_items : forall s n id c s' r,
  cget (ss_cur s) n = Some c -> sstep s (OColl n id) = (s', r) ->
  cget (ss_cur s') n = Some (mkSColl id (sc_items c)).
Proof.
  intros s n id c s' r G H. sstep_at H. injection H as <- _.
  cbn [ss_cur]. rewrite G. apply cget_cset_same.
Qed.

Theorem c12_remove_then_create_empty : forall s n id s1 r1 s2 r2,
  swf s -> sstep s (ORmColl n) = (s1, r1) -> sstep s1 (OColl n id) = (s2, r2) ->
  cget (ss_cur s2) n = Some (mkSColl id []).
Proof.
  intros s n id s1 r1 s2 r2 [Hs _] H1 H2. sstep_at H1. injection H1 as <- _.
  eapply c12_new_empty; [|exact H2]. apply cget_cdel_same. exact Hs.
Qed.

Theorem c12_removed_absent : forall s n s' r,
  swf s -> sstep s (ORmColl n) = (s', r) -> cget (ss_cur s') n = None /\ r = ROk.
Proof.
  intros s n s' r [Hs _] H. sstep_at H. injection H as <- <-.
  split; [apply cget_cdel_same; exact Hs | reflexivity].
Qed.

Lemma srecmp_sorted : forall reg cs, names_sorted cs -> names_sorted (srecmp reg cs).
Proof. intros reg cs H. rewrite srecmp_kmap. apply kmap_sorted. exact H. Qed.

Theorem c12_names_sorted : forall s o s' r, swf s -> sstep s o = (s', r) -> swf s'.
Proof.
  intros s o s' r [Hs Hf] H. rewrite (sstep_fst _ _ _ _ H).
  destruct (sstep_schg s o); unfold swf, swith_cur; cbn [ss_cur ss_flushed].
  - split; assumption.
  - split; [apply cset_sorted|]; assumption.
  - split; [apply cdel_sorted|]; assumption.
  - split; [apply cset_sorted|]; assumption.
  - split; [|constructor]; assumption.
  - split; [|exact Hf]. apply srecmp_sorted, hd_Forall; [exact I | exact Hf].
  - apply tl_Forall in Hf. split; [|exact Hf]. apply srecmp_sorted, hd_Forall; [exact I | exact Hf].
Qed.

Theorem c12_names_exact : forall s, sstep s ONames = (s, RNames (map fst (ss_cur s))).
Proof. reflexivity. Qed.

Theorem c12_names_strict : forall s s' l, swf s -> sstep s ONames = (s', RNames l) ->
  keys_sorted l /\ NoDup l /\ forall n, In n l <-> cget (ss_cur s) n <> None.
Proof.
  intros s s' l [Hs _] H. rewrite c12_names_exact in H. inversion H; subst; clear H.
  split; [exact Hs|]. split; [apply keys_sorted_NoDup; exact Hs|].
  intro n. split.
  - intro Hin. apply in_map_iff in Hin. destruct Hin as ([k c] & <- & Hin). cbn [fst]. now rewrite (In_cget _ _ _ Hs Hin).
  - destruct (cget (ss_cur s') n) as [c|] eqn:G; [intros _|congruence]. exact (in_map fst _ _ (cget_In _ _ _ G)).
Qed.

Theorem c12_others_untouched : forall s o n n' s' r,
  op_name o = Some n -> cmp_bytes n' n <> Eq -> sstep s o = (s', r) ->
  cget (ss_cur s') n' = cget (ss_cur s) n'.
Proof.
  intros s o n n' s' r Hn Hne H. rewrite (sstep_fst _ _ _ _ H).
  destruct (sstep_schg s o) as [o _|m id|m|o m c Hm| | |];
    try discriminate Hn; try reflexivity; unfold swith_cur; cbn [ss_cur].
  - injection Hn as <-. apply cget_cset_other; exact Hne.
  - injection Hn as <-. apply cget_cdel_other; exact Hne.
  - rewrite Hn in Hm. injection Hm as <-. apply cget_cset_other; exact Hne.
Qed.

Theorem c12_durable_only_at_flush : forall s o s' r,
  sstep s o = (s', r) -> o <> OFlush -> o <> ORevert -> ss_flushed s' = ss_flushed s.
Proof.
  intros s o s' r H H1 H2. rewrite (sstep_fst _ _ _ _ H).
  destruct (sstep_schg s o); try reflexivity; congruence.
Qed.

Theorem c12_flush_durable : forall s s' r, sstep s OFlush = (s', r) ->
  if ss_file s
  then ss_flushed s' = ss_cur s :: ss_flushed s /\ ss_cur s' = ss_cur s /\ r = ROk
  else s' = s /\ r = RErr.
Proof.
  intros s s' r H. sstep_at H. destruct (ss_file s); injection H as <- <-; auto.
Qed.

(* re-installing the registered comparators changes neither the names nor the items *)
Lemma srecmp_same : forall reg cs,
  map fst (srecmp reg cs) = map fst cs /\
  forall n, option_map sc_items (cget (srecmp reg cs) n) = option_map sc_items (cget cs n).
Proof.
  intros reg cs. rewrite srecmp_kmap. split; [apply kmap_fst|].
  intro n. rewrite cget_kmap. destruct (cget cs n); reflexivity.
Qed.

Theorem c12_revert_drops_last_flush : forall s s' r,
  ss_file s = true -> sstep s ORevert = (s', r) ->
  ss_flushed s' = tl (ss_flushed s) /\ r = ROk /\
  map fst (ss_cur s') = map fst (hd [] (ss_flushed s')) /\
  forall n, option_map sc_items (cget (ss_cur s') n) =
            option_map sc_items (cget (hd [] (ss_flushed s')) n).
Proof.
  intros s s' r Hf H. sstep_at H. rewrite Hf in H. injection H as <- <-.
  split; [reflexivity|]. split; [reflexivity|]. apply srecmp_same.
Qed.

Theorem c12_reopen_shows_last_flush : forall s s' r,
  ss_file s = true -> sstep s OReopen = (s', r) ->
  map fst (ss_cur s') = map fst (hd [] (ss_flushed s)) /\
  forall n, option_map sc_items (cget (ss_cur s') n) =
            option_map sc_items (cget (hd [] (ss_flushed s)) n).
Proof.
  intros s s' r Hf H. sstep_at H. rewrite Hf in H. injection H as <- _. apply srecmp_same.
Qed.

Theorem c12_reopen_no_file : forall s s' r,
  ss_file s = false -> sstep s OReopen = (s', r) -> s' = s /\ r = RNoFile.
Proof.
  intros s s' r Hf H. sstep_at H. rewrite Hf in H. injection H as <- <-. auto.
Qed.
