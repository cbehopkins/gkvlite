(* Layout.v — the constants and record layouts of the Go source (Generated.v,
   rewritten by tools/gen on every run) are those of file layout version 4 as
   written out independently in Codec.v and below. *)
From Coq Require Import String.
From GK Require Import Base Codec Generated.
Open Scope string_scope.

Definition v4_node_fields : list string :=
  ["item:ploc"; "left:ploc"; "right:ploc"; "numNodes:u64be"; "numBytes:u64be"].
Definition v4_ploc_fields : list string := ["Offset:u64be"; "Length:u32be"].
(* item header: length, keyLength (32-bit since keyPSize = 4; the 16-bit branch is dead), valLength, priority *)
Definition v4_item_fields : list string :=
  ["uint32@lenLoc:PutUint32"; "uint16@keyLoc:PutUint16"; "uint32@keyLoc:PutUint32";
   "uint32@valLoc:PutUint32"; "uint32@priLoc:PutUint32"].
Definition v4_root_fields : list string :=
  ["MagicBeg"; "MagicBeg"; "binary.BigEndian:uint32"; "binary.BigEndian:uint32"; "sJSON";
   "binary.BigEndian:int64"; "binary.BigEndian:uint32"; "MagicEnd"; "MagicEnd"].

Definition generated_layout :=
  (g_version, g_ploc_length, g_item_hdr_length, (g_len_loc, g_key_loc, g_val_loc, g_pri_loc, g_pri_sz),
   g_keyp_size, g_roots_end_len, g_roots_len, g_magic_beg, g_magic_end,
   g_node_enc, g_node_dec, g_ploc_enc, g_item_enc, g_root_enc).

Definition v4_layout :=
  (Codec.version, ploc_len, item_hdr_len, (0, 4, 8, 12, 16)%Z,
   4%Z, roots_end_len, roots_len, magic_beg, magic_end,
   v4_node_fields, v4_node_fields, v4_ploc_fields, v4_item_fields, v4_root_fields).

Lemma layout_is_v4 : generated_layout = v4_layout.
Proof. reflexivity. Qed.

(* the derived sizes used by Codec.v agree with the field lists *)
Lemma node_len_is_fields : node_len = (3 * ploc_len + 8 + 8)%Z.
Proof. reflexivity. Qed.
Lemma roots_len_is_fields : roots_len = (2 * blen magic_beg + 4 + 4 + roots_end_len)%Z /\
                            roots_end_len = (8 + 4 + 2 * blen magic_end)%Z.
Proof. split; reflexivity. Qed.

(* MaxBlockCnt of collection.go; Blocks.max_block_cnt is defined as the same number *)
Lemma max_block_cnt_is_1024 : g_max_block_cnt = 1024%Z.
Proof. reflexivity. Qed.
