(* LazyProofs.v — what GetItem / MinItem / MaxItem / NewStore read from the file when nothing is cached (C19).
   Each file-level function of Lazy.v is first shown equal, under rep / persisted, to a function of the tree
   alone (get_treads, walk_treads); the classification of the reads and their distance from the values are
   then properties of the tree.  The second half is about the records a tree refers to: records_disjoint is
   an invariant carried from the empty tree through the flush model (a flush appends: laid, L3_write_tree),
   not something a loaded file gives (load_not_disjoint). *)
From GK Require Import Base Treap TreapSpec Store Codec CodecProofs Disk DiskProofs Lazy.
From Coq Require Import Lia ZArith NArith List Bool Permutation.
Import ListNotations.
Open Scope Z_scope.

Lemma persisted_root_None t : persisted t -> root_loc t = None -> t = E.
Proof. destruct t as [|nl l il it nn nb r]; [reflexivity|]. cbn. intros (H & _) E. congruence. Qed.

(* MinItem / MaxItem walk down one side, a visit takes the side its direction asks for first: induction where
   the children are named by the side, b = true for (left, right) *)
Lemma tree_dir_ind (b : bool) (P : tree -> Prop) :
  P E ->
  (forall nl l il it nn nb r, P (if b then l else r) -> P (if b then r else l) -> P (T nl l il it nn nb r)) ->
  forall t, P t.
Proof. intros HE HT. induction t; [exact HE|]. apply HT; destruct b; assumption. Qed.

Lemma if_root_loc (b : bool) l r : (if b then root_loc l else root_loc r) = root_loc (if b then l else r).
Proof. now destruct b. Qed.

Lemma persisted_child (b : bool) nl l il it nn nb r :
  persisted (T nl l il it nn nb r) ->
  exists p q, nl = Some p /\ il = Some q /\ persisted (if b then l else r) /\ persisted (if b then r else l).
Proof.
  cbn [persisted]. intros (Hnl & Hil & Pl & Pr).
  destruct nl as [p|]; [|congruence]. destruct il as [q|]; [|congruence]. exists p, q. destruct b; auto.
Qed.

Lemma rep_child (b : bool) f nl l il it nn nb r :
  rep f (T nl l il it nn nb r) -> rep f (if b then l else r) /\ rep f (if b then r else l).
Proof. intro H. destruct (rep_children _ _ _ _ _ _ _ _ H). destruct b; auto. Qed.

Lemma height_child (b : bool) nl l il it nn nb r k :
  (height (T nl l il it nn nb r) <= S k)%nat ->
  (height (if b then l else r) <= k)%nat /\ (height (if b then r else l) <= k)%nat.
Proof. cbn [height]. destruct b; lia. Qed.

(* the reads of GetItem, as a function of the (persisted) tree *)
Fixpoint get_treads (cmp : bytes -> bytes -> comparison) (t : tree) (key : bytes) (wv : bool) : list rd :=
  match t with
  | E => []
  | T (Some p) l (Some q) it _ _ r =>
    node_reads p ++ item_reads q it false ++
    match cmp key (ikey it) with
    | Lt => get_treads cmp l key wv
    | Gt => get_treads cmp r key wv
    | Eq => if wv then item_reads q it true else []
    end
  | T _ _ _ _ _ _ _ => []
  end.

Lemma get_reads_tree cmp f key wv : forall t fuel,
  rep f t -> persisted t -> (height t <= fuel)%nat ->
  get_reads fuel cmp f (root_loc t) key wv = (get_treads cmp t key wv, lookup cmp t key).
Proof.
  induction t as [|nl l IHl il it nn nb r IHr]; intros fuel Hrep Hper Hh.
  - destruct fuel; reflexivity.
  - destruct (rep_node_inv _ _ _ _ _ _ _ _ Hrep Hper)
      as (p & q & -> & -> & Hpl & Hdn & Hql & Hdi & Rl & Rr & Pl & Pr).
    destruct fuel as [|k]; [cbn [height] in Hh; lia|]. destruct (height_child true _ _ _ _ _ _ _ _ Hh) as [Hl Hr].
    cbn [root_loc get_reads get_treads lookup]. rewrite Hdn. cbn [nr_item nr_left nr_right].
    rewrite Hdi. destruct (cmp key (ikey it)).
    + rewrite <- app_assoc. reflexivity.
    + rewrite IHl by auto. rewrite <- app_assoc. reflexivity.
    + rewrite IHr by auto. rewrite <- app_assoc. reflexivity.
Qed.

(* the reads of MinItem / MaxItem, as a function of the (persisted) tree *)
Fixpoint walk_treads (left wv : bool) (t : tree) : list rd :=
  match t with
  | T (Some p) l (Some q) it _ _ r =>
    node_reads p ++
    let c := if left then l else r in
    match c with
    | E => item_reads q it wv
    | _ => walk_treads left wv c
    end
  | _ => []
  end.

Definition tminmax (left : bool) (t : tree) : option item := if left then tmin t else tmax t.

Lemma tminmax_T left nl l il it nn nb r :
  tminmax left (T nl l il it nn nb r) =
  match (if left then l else r) with E => Some it | c => tminmax left c end.
Proof. destruct left; cbn [tminmax tmin tmax]; [destruct l|destruct r]; reflexivity. Qed.

(* Store.walk starts below the root; its caller has read the root node, as walk itself does for a child *)
Lemma walk_reads_tree f left wv : forall t fuel p,
  rep f t -> persisted t -> root_loc t = Some p -> (height t <= fuel)%nat ->
  (let '(r, res) := walk_reads fuel f p left wv in (node_reads p ++ r, res)) =
  (walk_treads left wv t, tminmax left t).
Proof.
  induction t as [|nl l il it nn nb r IH _] using (tree_dir_ind left);
    intros fuel p0 Hrep Hper Hroot Hh; [discriminate|].
  destruct (rep_node_inv _ _ _ _ _ _ _ _ Hrep Hper) as (p & q & -> & -> & _ & Hdn & _ & Hdi & _).
  destruct (rep_child left _ _ _ _ _ _ _ _ Hrep) as [Rc _].
  destruct (persisted_child left _ _ _ _ _ _ _ Hper) as (_ & _ & _ & _ & Pc & _).
  cbn [root_loc] in Hroot. injection Hroot as <-.
  destruct fuel as [|k]; [cbn [height] in Hh; lia|]. destruct (height_child left _ _ _ _ _ _ _ _ Hh) as [Hc _].
  rewrite tminmax_T. cbn [walk_treads walk_reads]. rewrite Hdn. cbn [nr_item nr_left nr_right].
  rewrite if_root_loc. remember (if left then l else r) as c eqn:Ec in *. clear Ec.
  destruct c as [|nl' l' il' it' nn' nb' r'].
  - cbn [root_loc]. rewrite Hdi. reflexivity.
  - destruct (persisted_child true _ _ _ _ _ _ _ Pc) as (pc & _ & -> & _).
    cbn [root_loc]. rewrite (IH k pc Rc Pc eq_refl Hc). reflexivity.
Qed.

Lemma minmax_reads_tree f left wv t :
  rep f t -> persisted t ->
  minmax_reads f (root_loc t) left wv = (walk_treads left wv t, tminmax left t).
Proof.
  intros Hrep Hper. unfold minmax_reads. destruct (root_loc t) as [p|] eqn:E.
  - apply walk_reads_tree; auto. pose proof (rep_height_le_file f t Hrep Hper). lia.
  - rewrite (persisted_root_None t Hper E). destruct left; reflexivity.
Qed.

Theorem L1_get cmp f t l key wv fuel :
  rep f t -> persisted t -> root_loc t = l -> (height t <= fuel)%nat ->
  snd (get_reads fuel cmp f l key wv) = lookup cmp t key.
Proof.
  intros Hrep Hper <- Hh. rewrite (get_reads_tree cmp f key wv t fuel) by (auto; lia). reflexivity.
Qed.

Theorem L1_get_lt cmp f t l key wv fuel :
  cmp_laws cmp -> bst cmp t ->
  rep f t -> persisted t -> root_loc t = l -> (height t < fuel)%nat ->
  snd (get_reads fuel cmp f l key wv) = lookup cmp t key.
Proof. intros _ _ Hrep Hper Hl Hh. apply L1_get; auto; lia. Qed.

Theorem L1_get_find cmp f t l key wv fuel :
  cmp_laws cmp -> bst cmp t ->
  rep f t -> persisted t -> root_loc t = l -> (height t < fuel)%nat ->
  snd (get_reads fuel cmp f l key wv) = TreapSpec.find cmp key (elems t).
Proof.
  intros Hlaws Hbst Hrep Hper Hl Hh. rewrite <- (lookup_spec cmp Hlaws t key Hbst).
  apply L1_get; auto; lia.
Qed.

Theorem L1_walk f t p left wv fuel :
  rep f t -> persisted t -> root_loc t = Some p -> (height t <= fuel)%nat ->
  snd (walk_reads fuel f p left wv) = if left then tmin t else tmax t.
Proof.
  intros Hrep Hper Hl Hh. pose proof (walk_reads_tree f left wv t fuel p Hrep Hper Hl Hh) as H.
  destruct (walk_reads fuel f p left wv). now inversion H.
Qed.

(* the fuel S (length f) built into minmax_reads always suffices: no fuel hypothesis *)
Theorem L1_min f t l wv :
  rep f t -> persisted t -> root_loc t = l -> snd (minmax_reads f l true wv) = tmin t.
Proof. intros Hrep Hper <-. rewrite minmax_reads_tree; auto. Qed.

Theorem L1_max f t l wv :
  rep f t -> persisted t -> root_loc t = l -> snd (minmax_reads f l false wv) = tmax t.
Proof. intros Hrep Hper <-. rewrite minmax_reads_tree; auto. Qed.

Theorem L1_height_fuel f t : rep f t -> persisted t -> (height t <= length f)%nat.
Proof. apply rep_height_le_file. Qed.

Definition in_node (t : tree) (r : rd) : Prop :=
  exists p, In p (node_locs t) /\ r = Rd (poff p) (plen p).
Definition in_keypart (t : tree) (r : rd) : Prop :=
  exists q it, In (q, it) (item_locs t) /\
    (r = Rd (poff q) item_hdr_len \/ r = Rd (poff q + item_hdr_len) (blen (ikey it))).
Definition in_value (t : tree) (r : rd) : Prop :=
  exists q it, In (q, it) (item_locs t) /\ r = Rd (fst (value_range q it)) (blen (ival it)).

Definition key_only (t : tree) (r : rd) : Prop := in_node t r \/ in_keypart t r.
(* the three reads of itemLoc.read(withValue = true) *)
Definition full_item_reads (q : ploc) (it : item) : list rd :=
  [Rd (poff q) item_hdr_len; Rd (poff q + item_hdr_len) (blen (ikey it));
   Rd (fst (value_range q it)) (blen (ival it))].

Lemma item_reads_true q it : item_reads q it true = full_item_reads q it.
Proof. reflexivity. Qed.

Lemma item_reads_true_false q it :
  item_reads q it true = item_reads q it false ++ [Rd (fst (value_range q it)) (blen (ival it))].
Proof. reflexivity. Qed.

Lemma node_locs_here p l il it nn nb r : In p (node_locs (T (Some p) l il it nn nb r)).
Proof. cbn [node_locs]. apply in_or_app. right. apply in_or_app. left. now left. Qed.
Lemma item_locs_here nl l q it nn nb r : In (q, it) (item_locs (T nl l (Some q) it nn nb r)).
Proof. cbn [item_locs]. apply in_or_app. right. apply in_or_app. left. now left. Qed.

Lemma locs_child (b : bool) nl l il it nn nb r :
  incl (node_locs (if b then l else r)) (node_locs (T nl l il it nn nb r)) /\
  incl (item_locs (if b then l else r)) (item_locs (T nl l il it nn nb r)).
Proof. destruct b; cbn [node_locs item_locs]; split; auto using incl_appl, incl_appr, incl_refl. Qed.

Lemma reads_incl t t' x :
  incl (node_locs t) (node_locs t') /\ incl (item_locs t) (item_locs t') ->
  (key_only t x -> key_only t' x) /\ (in_value t x -> in_value t' x).
Proof.
  intros [HN HI]. split.
  - intros [(p & Hp & ->)|(q & i & Hq & Hr)]; [left; exists p|right; exists q, i]; auto.
  - intros (q & i & Hq & Hr). exists q, i. auto.
Qed.

Lemma key_only_child (b : bool) nl l il it nn nb r x :
  key_only (if b then l else r) x -> key_only (T nl l il it nn nb r) x.
Proof. apply reads_incl, locs_child. Qed.

Lemma key_only_node_in t p : In p (node_locs t) -> Forall (key_only t) (node_reads p).
Proof. intro H. apply Forall_cons; [|apply Forall_nil]. left. exists p. split; [exact H|reflexivity]. Qed.

Lemma key_only_item_in t q it : In (q, it) (item_locs t) -> Forall (key_only t) (item_reads q it false).
Proof.
  intro H. cbn [item_reads app]. apply Forall_cons; [|apply Forall_cons; [|apply Forall_nil]];
    right; exists q, it; (split; [exact H|]); auto.
Qed.

Lemma Forall_app_intro {A} (P : A -> Prop) l1 l2 : Forall P l1 -> Forall P l2 -> Forall P (l1 ++ l2).
Proof. intros. apply Forall_app. now split. Qed.

Lemma get_treads_key_only cmp key : forall t, Forall (key_only t) (get_treads cmp t key false).
Proof.
  induction t as [|nl l IHl il it nn nb r IHr]; [constructor|].
  cbn [get_treads]. destruct nl as [p|]; [|constructor]. destruct il as [q|]; [|constructor].
  apply Forall_app_intro; [apply key_only_node_in, node_locs_here|].
  apply Forall_app_intro; [apply key_only_item_in, item_locs_here|].
  destruct (cmp key (ikey it)); [constructor| |].
  - eapply Forall_impl; [|exact IHl]. intros x. apply (key_only_child true).
  - eapply Forall_impl; [|exact IHr]. intros x. apply (key_only_child false).
Qed.

Lemma get_treads_true cmp key : forall t, persisted t -> exists tail,
  get_treads cmp t key true = get_treads cmp t key false ++ tail /\
  match lookup cmp t key with
  | None => tail = []
  | Some it => exists q, In (q, it) (item_locs t) /\ tail = full_item_reads q it
  end.
Proof.
  induction t as [|nl l IHl il it nn nb r IHr]; intros Hper; [exists []; split; reflexivity|].
  destruct (persisted_child true _ _ _ _ _ _ _ Hper) as (p & q & -> & -> & Pl & Pr).
  cbn [get_treads lookup]. destruct (cmp key (ikey it)).
  - exists (full_item_reads q it). split; [now rewrite app_nil_r, <- !app_assoc|].
    exists q. split; [apply item_locs_here|reflexivity].
  - destruct (IHl Pl) as (tail & E1 & E2). exists tail. split; [now rewrite E1, <- !app_assoc|].
    destruct (lookup cmp l key); [|exact E2]. destruct E2 as (q' & Hin & ->).
    exists q'. split; [apply (proj2 (locs_child true _ _ _ _ _ _ _)), Hin|reflexivity].
  - destruct (IHr Pr) as (tail & E1 & E2). exists tail. split; [now rewrite E1, <- !app_assoc|].
    destruct (lookup cmp r key); [|exact E2]. destruct E2 as (q' & Hin & ->).
    exists q'. split; [apply (proj2 (locs_child false _ _ _ _ _ _ _)), Hin|reflexivity].
Qed.

Theorem L2_get_false cmp f t l key fuel :
  rep f t -> persisted t -> root_loc t = l -> (height t <= fuel)%nat ->
  Forall (fun r => in_node t r \/ in_keypart t r) (fst (get_reads fuel cmp f l key false)).
Proof.
  intros Hrep Hper <- Hh. rewrite (get_reads_tree cmp f key false t fuel) by auto.
  apply get_treads_key_only.
Qed.

(* GetItem(withValue = true): the reads are those of withValue = false followed, on a
   hit, by the three reads (header, key, value) of the item found; on a miss by nothing.
   So exactly one value read occurs on a hit, none on a miss, and it is the last read. *)
Theorem L2_get_true cmp f t l key fuel :
  rep f t -> persisted t -> root_loc t = l -> (height t <= fuel)%nat ->
  exists tail,
    fst (get_reads fuel cmp f l key true) = fst (get_reads fuel cmp f l key false) ++ tail /\
    Forall (key_only t) (fst (get_reads fuel cmp f l key false)) /\
    match lookup cmp t key with
    | None => tail = []
    | Some it => exists q, In (q, it) (item_locs t) /\ tail = full_item_reads q it
    end.
Proof.
  intros Hrep Hper <- Hh. rewrite !(get_reads_tree cmp f key _ t fuel) by auto. cbn [fst].
  destruct (get_treads_true cmp key t Hper) as (tail & E1 & E2).
  exists tail. split; [exact E1|]. split; [apply get_treads_key_only|exact E2].
Qed.

Theorem L2_get_true_all cmp f t l key fuel :
  rep f t -> persisted t -> root_loc t = l -> (height t <= fuel)%nat ->
  Forall (fun r => in_node t r \/ in_keypart t r \/ in_value t r) (fst (get_reads fuel cmp f l key true)).
Proof.
  intros Hrep Hper Hl Hh.
  destruct (L2_get_true cmp f t l key fuel Hrep Hper Hl Hh) as (tail & -> & Hk & Ht).
  apply Forall_app_intro.
  - eapply Forall_impl; [|exact Hk]. intros x [H|H]; [left|right; left]; assumption.
  - destruct (lookup cmp t key) as [it|]; [|subst tail; constructor].
    destruct Ht as (q & Hin & ->). unfold full_item_reads.
    apply Forall_cons; [|apply Forall_cons; [|apply Forall_cons; [|apply Forall_nil]]];
      [right; left|right; left|right; right]; exists q, it; auto.
Qed.

Lemma walk_treads_key_only left : forall t, Forall (key_only t) (walk_treads left false t).
Proof.
  induction t as [|nl l il it nn nb r IH _] using (tree_dir_ind left); [constructor|].
  destruct nl as [p|]; [|constructor]. destruct il as [q|]; [|constructor]. cbn [walk_treads].
  apply Forall_app_intro; [apply key_only_node_in, node_locs_here|].
  pose proof (key_only_child left (Some p) l (Some q) it nn nb r) as Hc.
  remember (if left then l else r) as c eqn:Ec in *. clear Ec.
  destruct c as [|nl' l' il' it' nn' nb' r']; [apply key_only_item_in, item_locs_here|].
  eapply Forall_impl; [exact Hc|exact IH].
Qed.

Lemma walk_treads_true left : forall t, persisted t -> exists tail,
  walk_treads left true t = walk_treads left false t ++ tail /\
  match tminmax left t with
  | None => tail = []
  | Some it => exists q, In (q, it) (item_locs t) /\ tail = [Rd (fst (value_range q it)) (blen (ival it))]
  end.
Proof.
  induction t as [|nl l il it nn nb r IH _] using (tree_dir_ind left); intros Hper.
  - exists []. split; [reflexivity|now destruct left].
  - destruct (persisted_child left _ _ _ _ _ _ _ Hper) as (p & q & -> & -> & Pc & _).
    rewrite tminmax_T. cbn [walk_treads].
    pose proof (proj2 (locs_child left (Some p) l (Some q) it nn nb r)) as Hc.
    remember (if left then l else r) as c eqn:Ec in *. clear Ec.
    destruct c as [|nl' l' il' it' nn' nb' r'].
    + eexists. split; [now rewrite item_reads_true_false, app_assoc|].
      exists q. split; [apply item_locs_here|reflexivity].
    + destruct (IH Pc) as (tail & E1 & E2). exists tail. cbv iota zeta. split; [now rewrite E1, app_assoc|].
      destruct (tminmax left (T nl' l' il' it' nn' nb' r')); [|exact E2].
      destruct E2 as (q' & Hin & ->). exists q'. split; [apply Hc, Hin|reflexivity].
Qed.

Theorem L2_minmax_false f t l left :
  rep f t -> persisted t -> root_loc t = l ->
  Forall (key_only t) (fst (minmax_reads f l left false)).
Proof.
  intros Hrep Hper <-. rewrite minmax_reads_tree by auto. apply walk_treads_key_only.
Qed.

(* MinItem / MaxItem (withValue = true): the reads of withValue = false followed by
   exactly one value read, of the minimum / maximum item (nothing on an empty tree) *)
Theorem L2_minmax_true f t l left :
  rep f t -> persisted t -> root_loc t = l ->
  exists tail,
    fst (minmax_reads f l left true) = fst (minmax_reads f l left false) ++ tail /\
    Forall (key_only t) (fst (minmax_reads f l left false)) /\
    match tminmax left t with
    | None => tail = []
    | Some it => exists q, In (q, it) (item_locs t) /\ tail = [Rd (fst (value_range q it)) (blen (ival it))]
    end.
Proof.
  intros Hrep Hper <-. rewrite !minmax_reads_tree by auto. cbn [fst].
  destruct (walk_treads_true left t Hper) as (tail & E1 & E2).
  exists tail. split; [exact E1|]. split; [apply walk_treads_key_only|exact E2].
Qed.

Theorem L2_minmax_true_all f t l left :
  rep f t -> persisted t -> root_loc t = l ->
  Forall (fun r => in_node t r \/ in_keypart t r \/ in_value t r) (fst (minmax_reads f l left true)).
Proof.
  intros Hrep Hper Hl.
  destruct (L2_minmax_true f t l left Hrep Hper Hl) as (tail & -> & Hk & Ht).
  apply Forall_app_intro.
  - eapply Forall_impl; [|exact Hk]. intros x [H|H]; [left|right; left]; assumption.
  - destruct (tminmax left t) as [it|]; [|subst tail; constructor].
    destruct Ht as (q & Hin & ->). apply Forall_cons; [|apply Forall_nil].
    right; right. exists q, it. auto.
Qed.

(* C19, opening is O(1): NewStore reads the 24-byte trailer and the root record, nothing else *)
Theorem L5_open f m :
  root_at f (blen f) = Some m ->
  exists t o,
    read_at f (blen f - roots_end_len) roots_end_len = Some t /\ o = de (sub t 0 8) /\
    open_reads f = [Rd (blen f - 24) 24; Rd o (blen f - o - 24)] /\
    (* both ranges lie inside the root record [o, blen f) *)
    0 <= o /\ o <= blen f - 24 /\ blen f - 24 + 24 <= blen f /\
    0 <= blen f - o - 24 /\ o + (blen f - o - 24) <= blen f /\
    (* the record is longer than an empty root record; its recorded length is its extent *)
    roots_len < blen f - o /\ de (sub t 8 4) = (blen f - o) mod two32 /\
    (* the backward scan of decode_store finds this record at its first probe *)
    scan f (blen f) = ScanFound (blen f) m.
Proof.
  intros Hr.
  assert (Hs : scan f (blen f) = ScanFound (blen f) m).
  { apply scan_complete; [assumption|lia|intros e' He'; lia]. }
  unfold root_at in Hr. unfold open_reads. cbv zeta.
  destruct (blen f <=? roots_len); [discriminate|].
  destruct (read_at f (blen f - roots_end_len) roots_end_len) as [t|]; [|discriminate].
  destruct (negb (beq (sub t 12 6) magic_end && beq (sub t 18 6) magic_end)); [discriminate|].
  cbv zeta in Hr.
  destruct ((de (sub t 0 8) <? two63) && (de (sub t 0 8) <? blen f - roots_len) &&
            (de (sub t 8 4) =? (blen f - de (sub t 0 8)) mod two32)) eqn:Ec; [|discriminate].
  apply andb_prop in Ec. destruct Ec as (Ec & E3). apply andb_prop in Ec. destruct Ec as (E1 & E2).
  apply Z.ltb_lt in E2. apply Z.eqb_eq in E3.
  pose proof (de_nonneg (sub t 0 8)) as H0.
  exists t, (de (sub t 0 8)). change roots_end_len with 24 in *. change roots_len with 44 in *.
  repeat split; auto; lia.
Qed.

(* a record of the file referenced by a tree: a node record or an item record *)
Inductive record := RNode (p : ploc) | RItem (q : ploc) (it : item).

(* the half-open interval [fst, snd) a record occupies *)
Definition rspan (x : record) : Z * Z :=
  match x with
  | RNode p => (poff p, poff p + plen p)
  | RItem q _ => (poff q, poff q + plen q)
  end.

Definition idisj (a b : Z * Z) : Prop := snd a <= fst b \/ snd b <= fst a.
Definition rdisj (x y : record) : Prop := idisj (rspan x) (rspan y).

Definition node_records (t : tree) : list record := map RNode (node_locs t).
Definition item_records (t : tree) : list record := map (fun x => RItem (fst x) (snd x)) (item_locs t).
Definition records (t : tree) : list record := node_records t ++ item_records t.

(* every two entries (at different positions) of the list of records of t occupy disjoint intervals *)
Definition records_disjoint (t : tree) : Prop := ForallOrdPairs rdisj (records t).

Lemma rdisj_sym x y : rdisj x y -> rdisj y x.
Proof. unfold rdisj, idisj. tauto. Qed.

(* a new element related to all the others, in any position; R symmetric *)
Lemma FOP_insert {A} (R : A -> A -> Prop) x l2 : (forall a b, R a b -> R b a) -> forall l1,
  ForallOrdPairs R (l1 ++ l2) -> Forall (R x) (l1 ++ l2) -> ForallOrdPairs R (l1 ++ x :: l2).
Proof.
  intros Hs. induction l1 as [|a l1 IH]; cbn [app]; intros F X; [constructor; assumption|].
  inversion F as [|? ? Ha F']; subst. inversion X as [|? ? Hxa X']; subst.
  constructor; [|apply IH; assumption].
  apply Forall_app in Ha. destruct Ha as [Ha1 Ha2].
  apply Forall_app. split; [exact Ha1|]. constructor; [apply Hs, Hxa|exact Ha2].
Qed.

Lemma FOP_NoDup_map {A} (g : A -> Z) (R : A -> A -> Prop) (l : list A) :
  (forall a b, In a l -> In b l -> R a b -> g a <> g b) -> ForallOrdPairs R l -> NoDup (map g l).
Proof.
  intros Hg H. induction H as [|x l Hx Hl IH]; cbn [map]; constructor.
  - intro Hi. apply in_map_iff in Hi. destruct Hi as (y & Hy & Hyl).
    rewrite Forall_forall in Hx.
    apply (Hg x y); [left; reflexivity|right; exact Hyl|apply Hx; exact Hyl|symmetry; exact Hy].
  - apply IH. intros a b Ha Hb. apply Hg; right; assumption.
Qed.

Lemma FOP_of_NoDup {A} (R : A -> A -> Prop) (l : list A) :
  NoDup l -> (forall x y, In x l -> In y l -> x <> y -> R x y) -> ForallOrdPairs R l.
Proof.
  intros Hnd. induction Hnd as [|x l Hx Hnd IH]; intro H; constructor.
  - apply Forall_forall. intros y Hy. apply H; [left; reflexivity|right; exact Hy|].
    intro e. subst y. contradiction.
  - apply IH. intros a b Ha Hb. apply H; right; assumption.
Qed.

(* a sub-multiset of a duplicate-free list of pairwise related elements (R symmetric) *)
Lemma FOP_sub {A} (dec : forall a b : A, {a = b} + {a <> b}) (R : A -> A -> Prop) (l l' : list A) :
  (forall x y, R x y -> R y x) -> NoDup l -> ForallOrdPairs R l ->
  (forall x, (count_occ dec l' x <= count_occ dec l x)%nat) -> ForallOrdPairs R l'.
Proof.
  intros Hsym Hnd H Hc.
  assert (Hin : forall x, In x l' -> In x l).
  { intros x Hx. apply (count_occ_In dec) in Hx. apply (count_occ_In dec). specialize (Hc x). lia. }
  apply FOP_of_NoDup.
  - apply (NoDup_count_occ dec). intro x. rewrite (NoDup_count_occ dec) in Hnd. specialize (Hnd x). specialize (Hc x). lia.
  - intros x y Hx Hy Hne. destruct (ForallOrdPairs_In H x y (Hin x Hx) (Hin y Hy)) as [e|[r|r]]; auto. contradiction.
Qed.

Lemma records_disjoint_In t x y :
  records_disjoint t -> In x (records t) -> In y (records t) -> x = y \/ rdisj x y.
Proof.
  intros H Hx Hy. destruct (ForallOrdPairs_In H x y Hx Hy) as [E|[D|D]]; auto using rdisj_sym.
Qed.

Lemma in_node_records t p : In p (node_locs t) -> In (RNode p) (records t).
Proof. intros H. apply in_or_app. left. now apply in_map. Qed.
Lemma in_item_records t q it : In (q, it) (item_locs t) -> In (RItem q it) (records t).
Proof.
  intros H. apply in_or_app. right. unfold item_records.
  change (RItem q it) with ((fun x : ploc * item => RItem (fst x) (snd x)) (q, it)). now apply in_map.
Qed.

Lemma rep_locs f : forall t, rep f t ->
  Forall (fun p => plen p = node_len) (node_locs t) /\
  Forall (fun x => plen (fst x) = item_loc_len (snd x) /\ dec_item f (fst x) = Some (snd x)) (item_locs t).
Proof.
  induction t as [|nl l IHl il it nn nb r IHr]; intro Hrep; [split; constructor|].
  destruct (rep_children _ _ _ _ _ _ _ _ Hrep) as [Hl Hr].
  destruct (IHl Hl) as [Nl Il]. destruct (IHr Hr) as [Nr Ir].
  cbn [node_locs item_locs]. split; repeat (apply Forall_app_intro); auto.
  - destruct nl as [p|]; constructor; [|constructor]. cbn [rep] in Hrep. apply Hrep.
  - destruct il as [q|]; constructor; [|constructor]. exact (rep_item _ _ _ _ _ _ _ _ Hrep q eq_refl).
Qed.

Lemma rep_item_lens f t : rep f t ->
  forall q it, In (q, it) (item_locs t) -> plen q = item_loc_len it /\ dec_item f q = Some it.
Proof. intros Hrep q it. apply (proj1 (Forall_forall _ _) (proj2 (rep_locs f t Hrep)) (q, it)). Qed.

Lemma key_only_never_value f t r :
  rep f t -> records_disjoint t -> key_only t r ->
  forall q it, In (q, it) (item_locs t) -> rd_disjoint r (value_range q it).
Proof.
  intros Hrep Hd Hr q it Hin.
  pose proof (rep_item_lens f t Hrep) as Hlen.
  destruct (Hlen q it Hin) as (Hq & _). rewrite item_loc_len_eq in Hq.
  pose proof (blen_nonneg (ikey it)) as Hk. pose proof (blen_nonneg (ival it)) as Hv.
  pose proof (in_item_records t q it Hin) as Hy.
  unfold value_range. change item_hdr_len with 16 in *.
  destruct Hr as [(p & Hp & ->)|(q' & it' & Hin' & Hr)].
  - destruct (records_disjoint_In t (RNode p) (RItem q it) Hd (in_node_records t p Hp) Hy) as [E|D];
      [discriminate|].
    unfold rdisj, idisj in D. cbn [rspan fst snd] in D. cbn [rd_disjoint fst snd]. lia.
  - destruct (Hlen q' it' Hin') as (Hq' & _). rewrite item_loc_len_eq in Hq'.
    pose proof (blen_nonneg (ikey it')) as Hk'. pose proof (blen_nonneg (ival it')) as Hv'.
    destruct (records_disjoint_In t (RItem q' it') (RItem q it) Hd (in_item_records t q' it' Hin') Hy)
      as [E|D]; [inversion E; subst q' it'|unfold rdisj, idisj in D; cbn [rspan fst snd] in D];
      destruct Hr as [->| ->]; cbn [rd_disjoint fst snd]; change item_hdr_len with 16; lia.
Qed.

Theorem L4_get cmp f t l key fuel :
  rep f t -> persisted t -> root_loc t = l -> (height t <= fuel)%nat -> records_disjoint t ->
  forall r, In r (fst (get_reads fuel cmp f l key false)) ->
  forall q it, In (q, it) (item_locs t) -> rd_disjoint r (value_range q it).
Proof.
  intros Hrep Hper Hl Hh Hd r Hr. apply (key_only_never_value f t r Hrep Hd).
  exact (proj1 (Forall_forall _ _) (L2_get_false cmp f t l key fuel Hrep Hper Hl Hh) r Hr).
Qed.

Theorem L4_minmax f t l left :
  rep f t -> persisted t -> root_loc t = l -> records_disjoint t ->
  forall r, In r (fst (minmax_reads f l left false)) ->
  forall q it, In (q, it) (item_locs t) -> rd_disjoint r (value_range q it).
Proof.
  intros Hrep Hper Hl Hd r Hr. apply (key_only_never_value f t r Hrep Hd).
  exact (proj1 (Forall_forall _ _) (L2_minmax_false f t l left Hrep Hper Hl) r Hr).
Qed.

Lemma FOP_opt {A} (R : A -> A -> Prop) (o : option A) :
  ForallOrdPairs R (match o with Some x => [x] | None => [] end).
Proof. destruct o; repeat constructor. Qed.

(* Flush appends: whatever a stage writes lies above every record there is, those of the surrounding lists L and R
   included.  laid z l: the records of l occupy pairwise disjoint intervals that end at or below z. *)
Definition laid (z : Z) (l : list record) : Prop :=
  ForallOrdPairs rdisj l /\ Forall (fun x => snd (rspan x) <= z) l.

Lemma laid_insert z z' L R x :
  laid z (L ++ R) -> z <= fst (rspan x) -> snd (rspan x) <= z' -> z <= z' -> laid z' (L ++ x :: R).
Proof.
  intros [F B] H1 H2 Hz. split.
  - apply (FOP_insert _ _ _ rdisj_sym _ F). eapply Forall_impl; [|exact B].
    intros y Hy. right. exact (Z.le_trans _ _ _ Hy H1).
  - apply Forall_app in B. destruct B as [B1 B2].
    apply Forall_app_intro; [|constructor; [exact H2|]]; eapply Forall_impl; eauto; cbv beta; intros; lia.
Qed.

Definition oitem (il : option ploc) (it : item) : list record :=
  match il with Some q => [RItem q it] | None => [] end.
Definition onode (nl : option ploc) : list record := match nl with Some p => [RNode p] | None => [] end.

Lemma item_records_T nl l il it nn nb r :
  item_records (T nl l il it nn nb r) = item_records l ++ oitem il it ++ item_records r.
Proof. unfold item_records. cbn [item_locs]. rewrite !map_app. now destruct il. Qed.

Lemma node_records_T nl l il it nn nb r :
  node_records (T nl l il it nn nb r) = node_records l ++ onode nl ++ node_records r.
Proof. unfold node_records. cbn [node_locs]. rewrite !map_app. now destruct nl. Qed.

Lemma below_records : forall t b, below t b -> Forall (fun x => snd (rspan x) <= b) (records t).
Proof.
  unfold records.
  induction t as [|nl l IHl il it nn nb r IHr]; intros b Hb; [constructor|].
  cbn [below] in Hb. destruct Hb as (H1 & H2 & H3 & H4).
  specialize (IHl b H3). specialize (IHr b H4). apply Forall_app in IHl, IHr.
  destruct IHl as [Nl Il], IHr as [Nr Ir].
  rewrite node_records_T, item_records_T. repeat (apply Forall_app_intro); auto.
  - destruct nl as [p|]; constructor; [apply H1|constructor].
  - destruct il as [q|]; constructor; [apply H2|constructor].
Qed.

Lemma write_items_laid : forall t f size f1 s1 t1 L R,
  write_items f size t = (f1, s1, t1) -> laid size (L ++ item_records t ++ R) ->
  node_locs t1 = node_locs t /\ laid s1 (L ++ item_records t1 ++ R).
Proof.
  induction t as [|[p|] l IHl il it nn nb r IHr]; intros f size f3 s3 t3 L R H HL;
    try (injection H as <- <- <-; split; [reflexivity|assumption]).
  rewrite write_items_dirty in H.
  destruct (write_items f size l) as [[f1 s1] l'] eqn:El. destruct (put_item f1 s1 il it) as [[f2 s2] il'] eqn:Ei.
  destruct (write_items f2 s2 r) as [[f3' s3'] r'] eqn:Er. injection H as <- <- <-.
  rewrite item_records_T, <- !app_assoc in *.
  destruct (IHl _ _ _ _ _ L _ El HL) as (A0 & A1). rewrite app_assoc in A1.
  assert (Pm : laid s2 ((L ++ item_records l') ++ oitem il' it ++ item_records r ++ R)).
  { destruct il; injection Ei as <- <- <-; [exact A1|].
    pose proof (item_loc_len_ge it). apply (laid_insert s1); [exact A1|cbn; lia..]. }
  rewrite app_assoc in Pm. destruct (IHr _ _ _ _ _ _ R Er Pm) as (B0 & B1).
  cbn [node_locs]. split; [now rewrite A0, B0|]. now rewrite <- !app_assoc in B1.
Qed.

(* the node's own record is written after those of both children and stands between them in node_records *)
Lemma write_nodes_laid : forall t f size f1 s1 t1 L R,
  write_nodes f size t = (f1, s1, t1) -> laid size (L ++ node_records t ++ R) ->
  item_locs t1 = item_locs t /\ laid s1 (L ++ node_records t1 ++ R).
Proof.
  induction t as [|[p|] l IHl il it nn nb r IHr]; intros f size f3 s3 t3 L R H HL; cbn [write_nodes] in H;
    try (injection H as <- <- <-; split; [reflexivity|assumption]).
  destruct (write_nodes f size l) as [[f1 s1] l'] eqn:El. destruct (write_nodes f1 s1 r) as [[f2 s2] r'] eqn:Er.
  injection H as <- <- <-. rewrite node_records_T in *. cbn [onode app] in *.
  rewrite <- app_assoc in HL. destruct (IHl _ _ _ _ _ L _ El HL) as (A0 & A1). rewrite app_assoc in A1.
  destruct (IHr _ _ _ _ _ _ R Er A1) as (B0 & B1).
  cbn [item_locs]. split; [now rewrite A0, B0|]. rewrite <- app_assoc. cbn [app]. rewrite app_assoc.
  pose proof node_len_eq. apply (laid_insert s2); [exact B1|cbn; lia..].
Qed.

Theorem L3_write_tree f size t f' size' t' :
  below t size -> records_disjoint t -> write_tree f size t = (f', size', t') ->
  records_disjoint t'.
Proof.
  intros Hb Hd H. unfold write_tree in H.
  destruct (write_items f size t) as [[f1 s1] t1] eqn:E1.
  pose proof (conj Hd (below_records t size Hb) : laid size (records t)) as HL.
  unfold records_disjoint, records, node_records in *. rewrite <- (app_nil_r (item_records t)) in HL.
  destruct (write_items_laid _ _ _ _ _ _ _ [] E1 HL) as (<- & PI).
  destruct (write_nodes_laid _ _ _ _ _ _ [] _ H PI) as (B0 & PN).
  unfold item_records. rewrite B0. rewrite app_nil_r in PN. apply PN.
Qed.

Lemma locs_erase t : node_locs (erase t) = [] /\ item_locs (erase t) = [].
Proof.
  induction t as [|nl l IHl il it nn nb r IHr]; [split; reflexivity|].
  cbn [erase node_locs item_locs]. destruct IHl as [-> ->], IHr as [-> ->]. split; reflexivity.
Qed.

Theorem L3_empty : records_disjoint E.
Proof. constructor. Qed.

Theorem L3_erase t : records_disjoint (erase t).
Proof.
  unfold records_disjoint, records, node_records, item_records. destruct (locs_erase t) as [-> ->]. constructor.
Qed.

(* a tree built in memory and flushed for the first time *)
Corollary L3_first_flush f size t f' size' t' :
  write_tree f size (erase t) = (f', size', t') -> records_disjoint t'.
Proof.
  apply L3_write_tree; [|apply L3_erase].
  induction t as [|nl l IHl il it nn nb r IHr]; cbn [erase below loc_below]; auto.
Qed.

(* with write_tree_spec: after a flush of a tree whose records
   were disjoint (in particular a new tree), key-only lookups in the flushed tree never
   read a value byte of the new file *)
Corollary L4_after_write_tree cmp f size t f' size' t' key fuel :
  rep f t -> below t size -> 0 <= size <= blen f -> tree_ok t -> size' < two63 ->
  records_disjoint t -> write_tree f size t = (f', size', t') -> (height t' <= fuel)%nat ->
  (forall r, In r (fst (get_reads fuel cmp f' (root_loc t') key false)) ->
     forall q it, In (q, it) (item_locs t') -> rd_disjoint r (value_range q it)) /\
  (forall left r, In r (fst (minmax_reads f' (root_loc t') left false)) ->
     forall q it, In (q, it) (item_locs t') -> rd_disjoint r (value_range q it)).
Proof.
  intros Hrep Hb Hsz Hok H63 Hd H Hh.
  destruct (write_tree_spec _ _ _ _ _ _ Hrep Hb Hsz Hok H63 H) as (_ & _ & _ & Hper & Hrep' & _).
  pose proof (L3_write_tree _ _ _ _ _ _ Hb Hd H) as Hd'.
  split.
  - apply (L4_get cmp f' t' (root_loc t') key fuel); auto.
  - intros left. apply (L4_minmax f' t' (root_loc t') left); auto.
Qed.

(* a freshly loaded tree (NewStore + full load) satisfies the hypotheses of the theorems above other
   than records_disjoint *)
Corollary loaded_hyps d f l b bud t rem :
  load d f l b bud = Some (t, rem) -> locs_b t = true ->
  rep f t /\ persisted t /\ root_loc t = l /\ below t b.
Proof.
  intros H Hl. destruct (load_sound _ _ _ _ _ _ _ H Hl) as (H1 & H2).
  repeat split; eauto using load_persisted, load_root_loc.
Qed.

(* records_disjoint cannot be derived from load: load accepts files in which a node record is shared by two
   parents (within its node budget).  The 122-byte file below holds one item record, a leaf node, and a root
   whose left and right child are both that leaf; it loads, has consistent lengths (locs_b), and its records
   are not disjoint.  Files produced by the flush model from disjoint trees never look like this
   (L3_write_tree). *)
Definition cx_it : item := mkItem [1%N] [2%N] 0.
Definition cx_q : ploc := mkPloc 0 18.
Definition cx_c : ploc := mkPloc 18 52.
Definition cx_p : ploc := mkPloc 70 52.
Definition cx_file : file :=
  enc_item cx_it ++ enc_node (Some cx_q) None None 1 2 ++
  enc_node (Some cx_q) (Some cx_c) (Some cx_c) 3 6.
Definition cx_leaf : tree := T (Some cx_c) E (Some cx_q) cx_it 1 2 E.
Definition cx_tree : tree := T (Some cx_p) cx_leaf (Some cx_q) cx_it 3 6 cx_leaf.

Eval vm_compute in (blen cx_file, load 2 cx_file (Some cx_p) 122 3).

Lemma load_not_disjoint :
  load 2 cx_file (Some cx_p) 122 3 = Some (cx_tree, 0%nat) /\ locs_b cx_tree = true /\
  ~ records_disjoint cx_tree.
Proof.
  split; [vm_compute; reflexivity|]. split; [vm_compute; reflexivity|].
  intros H. unfold records_disjoint in H.
  change (records cx_tree) with
    [RNode cx_c; RNode cx_p; RNode cx_c; RItem cx_q cx_it; RItem cx_q cx_it; RItem cx_q cx_it] in H.
  inversion H as [|? ? Hx _]; subst. inversion Hx as [|? ? _ Hx']; subst.
  inversion Hx' as [|? ? Hc _]; subst.
  unfold rdisj, idisj in Hc. cbn in Hc. lia.
Qed.

(* towards records_disjoint_nodup: records_disjoint is stronger than the no-sharing invariant
   NoDup (node_offs t) of DiskProofs.v *)
Lemma node_offs_perm t : Permutation (node_offs t) (map poff (node_locs t)).
Proof.
  induction t as [|nl l IHl il it nn nb r IHr]; [constructor|].
  cbn [node_offs node_locs]. rewrite !map_app.
  eapply Permutation_trans; [|apply Permutation_app_swap_app].
  replace (map poff (match nl with Some p => [p] | None => [] end)) with (oloc_off nl)
    by (destruct nl; reflexivity).
  apply Permutation_app_head. now apply Permutation_app.
Qed.

(* records are not empty; so disjoint ones start at different offsets (records_offs_NoDup) *)
Lemma records_pos f t : rep f t -> forall a, In a (records t) -> fst (rspan a) < snd (rspan a).
Proof.
  intros Hrep a Ha. destruct (rep_locs f t Hrep) as [HN HI]. rewrite Forall_forall in HN, HI.
  unfold records in Ha. apply in_app_or in Ha. destruct Ha as [Ha|Ha]; apply in_map_iff in Ha.
  - destruct Ha as (p & <- & Hp). cbn [rspan fst snd]. rewrite (HN p Hp). unfold node_len. lia.
  - destruct Ha as ([q it] & <- & Hq). cbn [rspan fst snd]. destruct (HI _ Hq) as [Hlen _]. cbn [fst snd] in Hlen.
    pose proof (item_loc_len_ge it). lia.
Qed.

Lemma records_offs_NoDup f t : rep f t -> records_disjoint t -> NoDup (map (fun x => fst (rspan x)) (records t)).
Proof.
  intros Hrep Hd. apply (FOP_NoDup_map _ rdisj); [|exact Hd].
  intros a b Ha Hb Hab. pose proof (records_pos f t Hrep a Ha). pose proof (records_pos f t Hrep b Hb).
  unfold rdisj, idisj in Hab. lia.
Qed.

Theorem records_disjoint_nodup f t : rep f t -> records_disjoint t -> NoDup (node_offs t).
Proof.
  intros Hrep Hd. eapply Permutation_NoDup; [apply Permutation_sym, node_offs_perm|].
  pose proof (records_offs_NoDup f t Hrep Hd) as H. unfold records, node_records in H.
  rewrite map_app, map_map in H. exact (proj1 (proj1 (NoDup_app_iff _ _) H)).
Qed.
