(* MStore.v — several handles on one store: handle 0 is the writable store, the others are
   snapshots (Store.Snapshot(): a read-only copy of the current collections, unflushed changes
   included).  Each handle's behaviour is Store.step; a snapshot refuses Set / Delete / Flush,
   keeps what it saw when it was taken whatever happens to the other handles, and its Close
   only ends that handle. *)
From GK Require Import Base Treap Store.

Inductive mop :=
| MOp (h : nat) (o : op)        (* an operation through handle h *)
| MSnap (h : nat)               (* Snapshot() of handle h: a new handle at the end of the list *)
| MClose (h : nat).             (* Close() of handle h *)

Record hstate := mkH { h_store : store; h_ro : bool; h_closed : bool }.

Definition mstate := list hstate.

Definition minit (file : bool) : mstate := [mkH (init file) false false].

Inductive mout := MSkip | MOut (r : out).

Fixpoint set_nth {A} (l : list A) (n : nat) (x : A) : list A :=
  match l, n with
  | [], _ => []
  | _ :: t, O => x :: t
  | a :: t, S k => a :: set_nth t k x
  end.

(* the calls a read-only snapshot store refuses *)
Definition refused (o : op) : bool :=
  match o with
  | OSet _ _ _ _ | ODel _ _ | OFlush => true
  | _ => false
  end.

Definition mstep (s : mstate) (m : mop) : mstate * mout :=
  match m with
  | MOp h o =>
    match nth_error s h with
    | None => (s, MSkip)
    | Some hs =>
      if h_closed hs then (s, MSkip)
      else if h_ro hs && refused o then
        (s, MOut (match o with
                  | OSet name _ _ _ | ODel name _ =>
                      match cget (s_cur (h_store hs)) name with None => RNoColl | Some _ => RErr end
                  | _ => RErr
                  end))
      else
        let '(st', r) := step (h_store hs) o in
        (set_nth s h (mkH st' (h_ro hs) false), MOut r)
    end
  | MSnap h =>
    match nth_error s h with
    | None => (s, MSkip)
    | Some hs =>
      if h_closed hs then (s, MSkip)
      else (s ++ [mkH (mkStore (s_file (h_store hs)) (s_cur (h_store hs)) (s_flushed (h_store hs)) (s_cmpreg (h_store hs))) true false],
            MOut ROk)
    end
  | MClose h =>
    match nth_error s h with
    | None => (s, MSkip)
    | Some hs => (set_nth s h (mkH (h_store hs) (h_ro hs) true), MOut ROk)
    end
  end.

Fixpoint mrun (s : mstate) (ops : list mop) : list mout :=
  match ops with
  | [] => []
  | m :: ops' => let '(s', r) := mstep s m in r :: mrun s' ops'
  end.

Definition mop_handle (m : mop) : nat := match m with MOp h _ | MSnap h | MClose h => h end.

Lemma nth_error_set_nth_other {A} (l : list A) n k x : n <> k -> nth_error (set_nth l n x) k = nth_error l k.
Proof.
  revert n k. induction l as [|a l IH]; intros n k H; destruct n, k; cbn; try reflexivity; try congruence.
  apply IH. congruence.
Qed.

Lemma set_nth_length {A} (l : list A) n x : length (set_nth l n x) = length l.
Proof. revert n. induction l; intros [|n]; cbn; auto. Qed.

(* a step leaves the list of handles as it is, replaces the entry of its handle, or appends one *)
Lemma mstep_shape s m (P : mstate -> Prop) :
  P s -> (forall x, P (set_nth s (mop_handle m) x)) -> (forall x, P (s ++ [x])) -> P (fst (mstep s m)).
Proof.
  intros Hsame Hset Happ. destruct m as [h o|h|h]; cbn [mstep mop_handle] in *;
    (destruct (nth_error s h) as [hs|]; [|exact Hsame]).
  - destruct (h_closed hs); [exact Hsame|]. destruct (h_ro hs && refused o); [exact Hsame|].
    destruct (step (h_store hs) o). apply Hset.
  - destruct (h_closed hs); [exact Hsame|apply Happ].
  - apply Hset.
Qed.

(* one step through handle h leaves every other existing handle exactly as it was *)
Theorem mstep_isolated : forall s m s' r k, mstep s m = (s', r) -> k <> mop_handle m ->
  (k < length s)%nat -> nth_error s' k = nth_error s k.
Proof.
  intros s m s' r k H Hk Hlen. change s' with (fst (s', r)). rewrite <- H.
  apply mstep_shape; intros; [reflexivity|apply nth_error_set_nth_other; congruence|].
  apply nth_error_app1. exact Hlen.
Qed.

Fixpoint mexec (s : mstate) (ops : list mop) : mstate :=
  match ops with [] => s | m :: ops' => mexec (fst (mstep s m)) ops' end.

Lemma mstep_length : forall s m, (length s <= length (fst (mstep s m)))%nat.
Proof. intros s m. apply mstep_shape; intros; rewrite ?set_nth_length, ?app_length; lia. Qed.

(* over a whole history: a handle that no operation of the history goes through is unchanged --
   in particular a snapshot keeps exactly the contents it had when it was taken, whatever is done
   to the original (mutations, flushes, collection removal or replacement, Close) or to other snapshots *)
Theorem snapshot_isolated : forall ops s k, (k < length s)%nat ->
  (forall m, In m ops -> mop_handle m <> k) -> nth_error (mexec s ops) k = nth_error s k.
Proof.
  induction ops as [|m ops IH]; intros s k Hk Hno; cbn [mexec]; [reflexivity|].
  rewrite IH.
  - apply (mstep_isolated s m _ _ k (surjective_pairing _)); [|exact Hk].
    intro He. exact (Hno m (or_introl eq_refl) (eq_sym He)).
  - pose proof (mstep_length s m). lia.
  - intros m' Hin. apply Hno. right. exact Hin.
Qed.

(* a snapshot starts with the current collections of its source (unflushed changes included) *)
Theorem snapshot_sees_current : forall s h hs s' r, nth_error s h = Some hs -> h_closed hs = false ->
  mstep s (MSnap h) = (s', r) ->
  exists sn, nth_error s' (length s) = Some sn /\ s_cur (h_store sn) = s_cur (h_store hs) /\ h_ro sn = true.
Proof.
  intros s h hs s' r Hh Hc H. cbn [mstep] in H. rewrite Hh, Hc in H. injection H as <- _.
  eexists. split; [rewrite nth_error_app2, Nat.sub_diag by lia; reflexivity|]. cbn. auto.
Qed.

(* snapshots refuse Set, Delete and Flush and are not changed by the refusal *)
Theorem snapshot_refuses : forall s h hs o s' r, nth_error s h = Some hs -> h_closed hs = false ->
  h_ro hs = true -> refused o = true -> mstep s (MOp h o) = (s', r) ->
  s' = s /\ (r = MOut RErr \/ r = MOut RNoColl).
Proof.
  intros s h hs o s' r Hh Hc Hro Hrf H. cbn [mstep] in H. rewrite Hh, Hc, Hro, Hrf in H. cbn [andb] in H.
  injection H as <- <-. split; [reflexivity|].
  destruct o; try discriminate; cbn; try (left; reflexivity);
    destruct (cget (s_cur (h_store hs)) name); auto.
Qed.
