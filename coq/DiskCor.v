(* Corollaries of DiskProofs.v in the form the properties speak. *)
From GK Require Import Base Treap TreapSpec Store Codec CodecProofs Disk DiskProofs.

(* Flush only appends: nothing below the store size changes *)
Lemma flush_appends : forall f size cs f' size' cs',
  Forall (coll_ok f size) cs -> 0 <= size <= blen f -> flush_bytes f size cs = (f', size', cs') ->
  size' < two63 -> roots_len + blen (enc_json (root_map cs')) < two32 -> blen f' = size' ->
  Forall (fun nc => NoDup (node_offs (c_tree (snd nc)))) cs ->
  agree f f' size.
Proof. intros f size cs f' size' cs' H1 H2 H3 H4 _ _ _. apply (flush_spec f size cs f' size' cs' H1 H2 H3 H4). Qed.

(* FlushRevert truncates to the end of a valid root record, or to zero length *)
Lemma revert_truncates_to_root : forall f size f' e m,
  revert_bytes f size = (f', e, m) ->
  (e = 0 /\ f' = [] /\ m = []) \/ (root_at f e = Some m /\ f' = firstn (Z.to_nat e) f /\ e <= size).
Proof.
  intros f size f' e m H. unfold revert_bytes in H.
  destruct (scan f (if roots_len <? size then size - 1 else size)) as [| |e0 m0] eqn:Hs.
  - injection H as <- <- <-. left. auto.
  - injection H as <- <- <-. left. auto.
  - injection H as <- <- <-. right.
    destruct (scan_found _ _ _ _ Hs) as (Hle & _ & Hr & _).
    repeat split; auto. destruct (roots_len <? size); lia.
Qed.
