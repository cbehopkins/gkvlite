(* HeapHistory.v — property C13 over whole histories: as long as no key is overwritten
   with a lower priority than it had, no child outranks its parent in any collection of
   any reachable state (current or flushed); and with pairwise distinct priorities the
   shape (hence every depth) is a function of the final items alone. *)
From GK Require Import Base Order Treap TreapSpec Store StoreSpec StoreRefine Corollaries.

(* StoreRefine.call (fun _ c => heap (c_tree c)) cs written out: call_cset, call_cdel, call_kmap apply *)
Definition heap_colls (cs : colls) : Prop := forall n c, cget cs n = Some c -> heap (c_tree c).
Definition heap_store (s : store) : Prop := heap_colls (s_cur s) /\ Forall heap_colls (s_flushed s).

(* the history never overwrites a key with a lower priority: checked against the model
   state as it evolves *)
Fixpoint no_lower_overwrite (s : store) (ops : list op) : Prop :=
  match ops with
  | [] => True
  | o :: ops' =>
    (match o with
     | OSet name key (Some v) prio =>
         match cget (s_cur s) name with
         | Some c => match lookup (cmp_of (c_cmp c)) (c_tree c) key with
                     | Some old => iprio old <= prio
                     | None => True
                     end
         | None => True
         end
     | _ => True
     end) /\ no_lower_overwrite (fst (step s o)) ops'
  end.

Lemma heap_colls_nil : heap_colls [].
Proof. intros n c H. discriminate H. Qed.

(* re-opening installs the registered comparators but keeps the trees *)
Lemma heap_colls_recmp : forall reg cs, heap_colls cs -> heap_colls (recmp reg cs).
Proof. intros reg cs Hc. rewrite recmp_kmap. apply call_kmap. exact Hc. Qed.

Theorem heap_step : forall s o,
  wf s -> heap_store s -> ops_ok (s_cmpreg s) [o] -> no_lower_overwrite s [o] ->
  heap_store (fst (step s o)).
Proof.
  intros s o [[Hs Hc] _] [Hh Hhf] _ [Hno _].
  destruct (step_chg s o) as [o _|n id|n|n c key v prio G V|n c key G|F|F|F];
    unfold heap_store, with_cur; cbn [s_cur s_flushed].
  - split; assumption.
  - split; [|exact Hhf]. apply call_cset; [exact Hh|]. cbn [c_tree].
    destruct (cget (s_cur s) n) as [c|] eqn:G; [exact (Hh _ _ G) | exact I].
  - split; [|exact Hhf]. apply call_cdel; assumption.
  - split; [|exact Hhf]. apply call_cset; [exact Hh|]. cbn [c_tree].
    destruct (Hc _ _ G) as [[Hb _] _].
    apply insert_heap; [apply cmp_of_laws | exact Hb | exact (Hh _ _ G) |].
    (* the overwritten item is the one the history's side condition speaks of *)
    intros old Hf. cbn [ikey iprio] in Hf |- *.
    rewrite G, (lookup_spec _ (cmp_of_laws _) _ _ Hb), Hf in Hno. exact Hno.
  - split; [|exact Hhf]. apply call_cset; [exact Hh|]. cbn [c_tree].
    destruct (Hc _ _ G) as [[Hb _] _].
    destruct (delete (cmp_of (c_cmp c)) (c_tree c) key) as [t' b] eqn:D.
    exact (delete_heap _ (cmp_of_laws _) _ _ _ _ Hb (Hh _ _ G) D).
  - split; [exact Hh | constructor; assumption].
  - split; [|exact Hhf]. apply heap_colls_recmp, hd_Forall; [apply heap_colls_nil | exact Hhf].
  - split; [|apply tl_Forall; exact Hhf]. apply heap_colls_recmp, hd_Forall; [apply heap_colls_nil | apply tl_Forall; exact Hhf].
Qed.

Theorem heap_history : forall ops s,
  wf s -> heap_store s -> ops_ok (s_cmpreg s) ops -> no_lower_overwrite s ops ->
  heap_store (exec s ops).
Proof.
  induction ops as [|o ops IH]; intros s Hwf Hh Hok Hno; [exact Hh|].
  destruct Hno as [Hno1 Hno2].
  destruct (ops_ok_step s o ops _ _ Hok (surjective_pairing _)) as [Hok1 Hok2].
  apply IH; [apply step_wf | apply heap_step | |]; try assumption.
  split; [exact Hno1 | exact I].
Qed.

Theorem c13_heap_history : forall file ops,
  ops_ok [] ops -> no_lower_overwrite (init file) ops -> heap_store (exec (init file) ops).
Proof.
  intros file ops Hok Hno.
  apply heap_history; [apply wf_init | split; [apply heap_colls_nil | constructor] | exact Hok | exact Hno].
Qed.

Corollary c13_heap_reachable : forall file ops n c,
  ops_ok [] ops -> no_lower_overwrite (init file) ops ->
  cget (s_cur (exec (init file) ops)) n = Some c -> heap (c_tree c).
Proof.
  intros file ops n c Hok Hno G.
  destruct (c13_heap_history file ops Hok Hno) as [Hh _]. eapply Hh. exact G.
Qed.

Theorem c13_history_canonical : forall f1 f2 ops1 ops2 n c1 c2,
  ops_ok [] ops1 -> ops_ok [] ops2 ->
  no_lower_overwrite (init f1) ops1 -> no_lower_overwrite (init f2) ops2 ->
  cget (s_cur (exec (init f1) ops1)) n = Some c1 ->
  cget (s_cur (exec (init f2) ops2)) n = Some c2 ->
  c_cmp c1 = c_cmp c2 ->
  elems (c_tree c1) = elems (c_tree c2) ->
  NoDup (map iprio (elems (c_tree c1))) ->
  shape_of (c_tree c1) = shape_of (c_tree c2) /\
  forall d, depths (c_tree c1) d = depths (c_tree c2) d.
Proof.
  intros f1 f2 ops1 ops2 n c1 c2 Hok1 Hok2 Hno1 Hno2 G1 G2 Hcmp He Hnd.
  destruct (reachable_tree_invariants f1 ops1 n c1 Hok1 G1) as [Hb1 _].
  destruct (reachable_tree_invariants f2 ops2 n c2 Hok2 G2) as [Hb2 _].
  rewrite <- Hcmp in Hb2.
  pose proof (c13_heap_reachable f1 ops1 n c1 Hok1 Hno1 G1) as Hh1.
  pose proof (c13_heap_reachable f2 ops2 n c2 Hok2 Hno2 G2) as Hh2.
  split.
  - eapply (treap_unique (cmp_of (c_cmp c1))); eassumption.
  - eapply (depth_canonical (cmp_of (c_cmp c1))); eassumption.
Qed.
