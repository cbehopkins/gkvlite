(* Why the theorems of CodecProofs.v / DiskProofs.v carry the side conditions they do:
   concrete files on which the statements without them fail. *)
From GK Require Import Base Treap TreapSpec Store Codec CodecProofs Disk DiskProofs.
From Coq Require Import Lia ZArith NArith List Bool.
Import ListNotations.
Open Scope Z_scope.

Ltac zle := vm_compute; let HH := fresh in intro HH; discriminate HH.

(* entry_ok needs an upper bound on offsets/lengths (decimal has 40 digits). *)
Example json_cex :
  let m := [([97%N], Some (mkPloc (10 ^ 40) 1))] in
  (* the entry satisfies entry_ok as written in STATEMENTS.md ... *)
  (name_ok [97%N] /\ 0 <= 10 ^ 40 /\ 0 <= 1 /\ ~ (10 ^ 40 = 0 /\ 1 = 0)) /\
  (* ... but does not round-trip *)
  dec_json (enc_json m) = None.
Proof.
  split; [|vm_compute; reflexivity].
  split; [repeat constructor|]. split; [zle|]. split; [zle|]. intros [_ H]; discriminate H.
Qed.

(* "every tree in cs is below e0" does not suffice for crash_same_trees:
   an item record whose header announces a value that extends beyond the item's
   ploc, the root record and e0.  f' is f0 truncated at e0. *)
Definition ov_V : Z := 127.
Definition ov_root : bytes := enc_root [([97%N], Some (mkPloc 17 52))] 69.
Definition ov_f0 : file :=
  (be 4 (16 + 1 + ov_V) ++ be 4 1 ++ be 4 ov_V ++ be 4 0) ++ [1%N] ++
  enc_node (Some (mkPloc 0 16)) None None 1 (1 + ov_V) ++ ov_root ++ repeat 0%N 10.
Definition ov_f' : file := firstn (Z.to_nat 134) ov_f0.
Definition ov_m0 : list (bytes * option ploc) := [([97%N], Some (mkPloc 17 52))].
Definition ov_cs : list (bytes * tree) :=
  match load_all ov_f0 ov_m0 134 with Some cs => cs | None => [] end.

Example crash_cex_overrun :
  scan ov_f0 (blen ov_f0) = ScanFound 134 ov_m0 /\ agree ov_f0 ov_f' 134 /\ 134 <= blen ov_f' /\
  (forall e', 134 < e' <= blen ov_f' -> root_at ov_f' e' = None) /\
  load_all ov_f0 ov_m0 134 = Some ov_cs /\
  Forall (fun nt => below (snd nt) 134) ov_cs /\
  load_all ov_f' ov_m0 134 = None /\
  decode_store ov_f0 <> decode_store ov_f'.
Proof.
  split; [vm_compute; reflexivity|]. split; [apply agree_firstn|]. split; [zle|].
  split; [intros e' He'; assert (E : blen ov_f' = 134) by (vm_compute; reflexivity); lia|].
  split; [vm_compute; reflexivity|].
  split; [vm_compute; repeat constructor; let HH := fresh in intro HH; discriminate HH|].
  split; [vm_compute; reflexivity|]. zle.
Qed.

(* A file whose node records form a DAG: node k has node k-1 as BOTH children.
   The tree it represents has 2^(k+1) - 1 nodes but the file only 18 + 52 (k+1) bytes. *)
Definition dag_item : item := mkItem [1%N] [2%N] 0.
Definition dag_iloc : ploc := mkPloc 0 18.
Definition dag_loc (k : nat) : ploc := mkPloc (18 + 52 * Z.of_nat k) 52.
Fixpoint dag_nodes (k : nat) : bytes :=
  match k with
  | O => enc_node (Some dag_iloc) None None 1 2
  | S j => dag_nodes j ++ enc_node (Some dag_iloc) (Some (dag_loc j)) (Some (dag_loc j)) 1 2
  end.
Fixpoint dag_tree (k : nat) : tree :=
  match k with
  | O => T (Some (dag_loc 0)) E (Some dag_iloc) dag_item 1 2 E
  | S j => T (Some (dag_loc (S j))) (dag_tree j) (Some dag_iloc) dag_item 1 2 (dag_tree j)
  end.
Definition dag_file (k : nat) : file := enc_item dag_item ++ dag_nodes k.

Lemma dag_item_ok : item_ok dag_item.
Proof.
  unfold item_ok. change (item_loc_len dag_item) with 18. rewrite two32_eq, two31_eq.
  cbn [dag_item ikey ival iprio]. repeat split; try reflexivity; lia.
Qed.

Lemma dag_tree_ok k : tree_ok (dag_tree k).
Proof.
  change (2 ^ 64) with 18446744073709551616.
  induction k as [|k IH]; cbn [dag_tree tree_ok];
    (split; [apply dag_item_ok|]); (split; [lia|]); (split; [lia|]); split; auto.
Qed.

Definition dag_f : file := dag_file 9.           (* 538 bytes *)
Definition dag_t : tree := dag_tree 9.           (* 1023 nodes *)

Lemma blen_dag_nodes k : blen (dag_nodes k) = 52 * (Z.of_nat k + 1).
Proof.
  induction k as [|k IH]; cbn [dag_nodes]; [|rewrite blen_app]; rewrite blen_enc_node; change node_len with 52; lia.
Qed.

Lemma root_loc_dag k : root_loc (dag_tree k) = Some (dag_loc k).
Proof. destruct k; reflexivity. Qed.

Lemma dag_loc_ok k : Z.of_nat k < two32 -> oploc_ok (Some (dag_loc k)).
Proof. rewrite two32_eq. unfold oploc_ok, ploc_ok, dag_loc. rewrite two63_eq, two32_eq. cbn [poff plen]. lia. Qed.

(* node k of the DAG, after the item and k node records ns: both children are the same subtree c *)
Lemma dag_node_rep ns rest k c l :
  let f := enc_item dag_item ++ ns ++ enc_node (Some dag_iloc) l l 1 2 ++ rest in
  blen ns = 52 * Z.of_nat k -> root_loc c = l -> oploc_ok l ->
  (forall q, l = Some q -> poff q + plen q <= poff (dag_loc k)) -> rep f c -> persisted c ->
  let t := T (Some (dag_loc k)) c (Some dag_iloc) dag_item 1 2 c in rep f t /\ persisted t.
Proof.
  intros f Hns <- Hl Hb Hc Hp t. assert (Hpt : persisted t) by (repeat split; auto; discriminate).
  split; [|exact Hpt].
  refine (conj Hpt (conj Hc (conj Hc (conj eq_refl (conj _ (conj _ (conj Hb Hb))))))).
  - apply dec_node_enc; auto; try lia.
    + unfold oploc_ok, ploc_ok, dag_iloc. rewrite two63_eq, two32_eq. cbn [poff plen]. lia.
    + subst f. rewrite app_assoc. replace (18 + 52 * Z.of_nat k) with (blen (enc_item dag_item ++ ns))
        by (rewrite blen_app, blen_enc_item, Hns; reflexivity).
      rewrite <- (blen_enc_node (Some dag_iloc) (root_loc c) (root_loc c) 1 2). apply read_at_mid.
  - intros q [= <-]. split; [reflexivity|]. split; [|cbn [poff plen dag_iloc dag_loc]; lia].
    apply (dec_item_enc _ 0 dag_item dag_item_ok); [lia|]. apply (read_at_mid [] (enc_item dag_item)).
Qed.

(* the file of a DAG represents the exponentially larger tree, whatever follows it *)
Lemma dag_rep_k k : Z.of_nat k < two32 -> forall rest,
  rep (dag_file k ++ rest) (dag_tree k) /\ persisted (dag_tree k).
Proof.
  unfold dag_file. induction k as [|k IH]; intros Hk rest; cbn [dag_nodes dag_tree]; rewrite <- !app_assoc.
  - apply (dag_node_rep [] rest 0 E); try exact I; [reflexivity|reflexivity|discriminate].
  - destruct (IH ltac:(lia) (enc_node (Some dag_iloc) (Some (dag_loc k)) (Some (dag_loc k)) 1 2 ++ rest)) as [Hr Hp].
    rewrite <- app_assoc in Hr.
    apply (dag_node_rep (dag_nodes k) rest (S k) (dag_tree k)); auto.
    + rewrite blen_dag_nodes. lia.
    + apply root_loc_dag.
    + apply dag_loc_ok. lia.
    + intros q [= <-]. cbn [poff plen dag_loc]. lia.
Qed.

Lemma dag_below k : below (dag_tree k) (18 + 52 * (Z.of_nat k + 1)).
Proof.
  induction k as [|k IH]; cbn [dag_tree below loc_below dag_loc dag_iloc poff plen]; repeat split; try lia;
    apply (below_mono _ _ _ IH); lia.
Qed.

Lemma dag_rep rest : rep (dag_f ++ rest) dag_t /\ persisted dag_t.
Proof. apply dag_rep_k. now rewrite two32_eq. Qed.

(* loading the root of the DAG from any file that starts with it: the node budget decides *)
Lemma dag_load rest bound budget : 538 <= bound ->
  load (S (length (dag_f ++ rest))) (dag_f ++ rest) (Some (dag_loc 9)) bound budget =
  if (1023 <=? budget)%nat then Some (dag_t, (budget - 1023)%nat) else None.
Proof.
  intro Hb. destruct (dag_rep rest) as [Hr Hp].
  apply (load_rep_gen _ dag_t); auto.
  - intros p [= <-]. cbn [poff plen dag_loc]. lia.
  - rewrite app_length. change (height dag_t) with 10%nat. change (length dag_f) with 538%nat. lia.
Qed.

(* flush_decodes is false without a bound on the number of nodes
   (all the other hypotheses hold; nothing is dirty, only the root record is written). *)
Definition dag_cs : colls := [([97%N], mkColl 0 dag_t)].
Definition dag_fl := flush_bytes dag_f 538 dag_cs.

Example flush_cex_budget :
  let f' := fst (fst dag_fl) in let size' := snd (fst dag_fl) in let cs' := snd dag_fl in
  Forall (coll_ok dag_f 538) dag_cs /\ 0 <= 538 <= blen dag_f /\
  flush_bytes dag_f 538 dag_cs = (f', size', cs') /\
  size' < two63 /\ roots_len + blen (enc_json (root_map cs')) < two32 /\ blen f' = size' /\
  blen dag_f = 538 /\
  decode_store f' = OpBad.
Proof.
  cbv zeta. split.
  { constructor; [|constructor]. unfold coll_ok. cbn [fst snd c_tree].
    destruct (dag_rep []) as [R _]. rewrite app_nil_r in R. split; [repeat constructor|]. split; [exact R|].
    split; [exact (dag_below 9)|apply dag_tree_ok]. }
  split; [split; zle|]. split; [fold dag_fl; now destruct dag_fl as [[? ?] ?]|].
  split; [vm_compute; reflexivity|]. split; [vm_compute; reflexivity|]. split; [vm_compute; reflexivity|].
  split; [vm_compute; reflexivity|].
  (* nothing is dirty, so the Flush appends the root record only; the new file's budget is 605 < 1023 nodes *)
  set (root := enc_root [([97%N], Some (dag_loc 9))] 538).
  assert (E : fst (fst dag_fl) = dag_f ++ root) by (vm_compute; reflexivity).
  assert (B : (blen (dag_f ++ root) =? 0) = false) by (vm_compute; reflexivity).
  assert (S : scan (dag_f ++ root) (blen (dag_f ++ root)) = ScanFound 604 [([97%N], Some (dag_loc 9))])
    by (vm_compute; reflexivity).
  rewrite E. unfold decode_store. rewrite B, S. cbn [load_all]. rewrite dag_load by lia. reflexivity.
Qed.

(* a root record ends with MagicEnd: no position inside a tail of zero bytes is the end of one *)
Lemma root_at_zero_tail pre n e : blen pre < e <= blen pre + Z.of_nat n ->
  root_at (pre ++ repeat 0%N n) e = None.
Proof.
  intro He. unfold root_at. destruct (e <=? roots_len) eqn:El; [reflexivity|]. apply Z.leb_gt in El.
  rewrite roots_len_eq in El. change roots_end_len with 24.
  destruct (read_at _ (e - 24) 24) as [t|] eqn:Er; [|reflexivity].
  destruct (beq (sub t 18 6) magic_end) eqn:Eb; [|now rewrite andb_false_r].
  apply read_at_inv in Er as [-> _]. apply beq_eq in Eb. apply (f_equal (fun x => sub x 5 1)) in Eb.
  rewrite !sub_sub in Eb by lia. exfalso. revert Eb.
  unfold blen in He.
  replace (Z.to_nat (e - 24) + (18 + 5))%nat with (length pre + (Z.to_nat e - 1 - length pre))%nat by lia.
  rewrite sub_app_r. set (k := (Z.to_nat e - 1 - length pre)%nat). unfold sub. intro Eb.
  assert (Hin : In 112%N (repeat 0%N n)).
  { rewrite <- (firstn_skipn k (repeat 0%N n)). apply in_or_app. right.
    rewrite <- (firstn_skipn 1 (skipn k (repeat 0%N n))), Eb. left. reflexivity. }
  apply repeat_spec in Hin. discriminate.
Qed.

(* crash_same_trees needs the node budget of the NEW file: f0 has 600 bytes of
   junk after its last root, so its budget suffices for the 1023 nodes; f' (f0 truncated
   at e0 = 604) has a budget of 605 only. *)
Definition bg_m0 : list (bytes * option ploc) := [([97%N], Some (dag_loc 9))].
Definition bg_f0 : file := dag_f ++ enc_root bg_m0 538 ++ repeat 0%N 600.
Definition bg_f' : file := firstn (Z.to_nat 604) bg_f0.
Definition bg_cs : list (bytes * tree) := [([97%N], dag_t)].

Example crash_cex_budget :
  scan bg_f0 (blen bg_f0) = ScanFound 604 bg_m0 /\ agree bg_f0 bg_f' 604 /\ 604 <= blen bg_f' /\
  (forall e', 604 < e' <= blen bg_f' -> root_at bg_f' e' = None) /\
  load_all bg_f0 bg_m0 604 = Some bg_cs /\
  Forall (fun nt => rep bg_f0 (snd nt) /\ below (snd nt) 604) bg_cs /\
  load_all bg_f' bg_m0 604 = None.
Proof.
  assert (E' : bg_f' = dag_f ++ enc_root bg_m0 538) by (vm_compute; reflexivity).
  assert (L : blen bg_f0 = 1204) by (vm_compute; reflexivity).
  split.
  { apply scan_complete; [vm_compute; reflexivity|lia|]. intros e' He'.
    unfold bg_f0. rewrite app_assoc. apply root_at_zero_tail.
    replace (blen (dag_f ++ enc_root bg_m0 538)) with 604 by (vm_compute; reflexivity).
    change (Z.of_nat 600) with 600. lia. }
  split; [apply agree_firstn|]. split; [zle|].
  split; [intros e' He'; assert (E : blen bg_f' = 604) by (vm_compute; reflexivity); lia|].
  split; [|split].
  - unfold bg_f0. cbn [load_all bg_m0]. rewrite dag_load by lia. reflexivity.
  - constructor; [|constructor]. cbn [snd]. split.
    + exact (proj1 (dag_rep _)).
    + apply (below_mono _ _ _ (dag_below 9)). lia.
  - rewrite E'. cbn [load_all bg_m0]. rewrite dag_load by lia. reflexivity.
Qed.
