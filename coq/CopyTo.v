(* CopyTo.v — property C11: Store.CopyTo produces an equivalent copy.
   CopyTo visits the source collection in ascending key order and SetItem's
   every item (with its own priority) into an empty destination collection. *)
From GK Require Import Base Treap TreapSpec.

(* the model of CopyTo: insert the items of [src], in ascending order, into E *)
Definition copy_tree (cmp : bytes -> bytes -> comparison) (src : tree) : tree :=
  fold_left (fun t it => insert cmp t it) (elems src) E.

(* an option-monad left fold, for the variant that goes through SetItem's validation *)
Fixpoint fold_opt {A B : Type} (f : A -> B -> option A) (l : list B) (a : A) : option A :=
  match l with
  | [] => Some a
  | x :: xs => match f a x with Some a' => fold_opt f xs a' | None => None end
  end.

Definition set_item_of (cmp : bytes -> bytes -> comparison) (t : tree) (it : item) : option tree :=
  set_item cmp t (ikey it) (Some (ival it)) (iprio it).

Definition copy_tree_set (cmp : bytes -> bytes -> comparison) (src : tree) : option tree :=
  fold_opt (set_item_of cmp) (elems src) E.

Definition item_valid (it : item) : Prop :=
  valid_item (ikey it) (Some (ival it)) (iprio it) = true.

Section Copy.
Variable cmp : bytes -> bytes -> comparison.
Hypothesis laws : cmp_laws cmp.

(* the fold, from any accumulator whose keys are all below the keys still to come *)
Lemma fold_insert_gen : forall l t,
  bst cmp t -> sorted cmp (elems t ++ l) ->
  let t' := fold_left (fun t it => insert cmp t it) l t in
  elems t' = elems t ++ l /\ (heap t -> heap t').
Proof.
  induction l as [|it l IH]; intros t Hb Hs; cbn zeta.
  - cbn. rewrite app_nil_r. auto.
  - cbn [fold_left].
    assert (Hlt : all_lt cmp (elems t) (ikey it)) by (apply (sorted_app cmp laws) in Hs; tauto).
    assert (He : elems (insert cmp t it) = elems t ++ [it]).
    { rewrite (insert_elems cmp laws) by exact Hb. apply (ins_append cmp laws). exact Hlt. }
    destruct (IH (insert cmp t it) (insert_bst cmp laws t it Hb)) as [IH1 IH2].
    { rewrite He, <- app_assoc. exact Hs. }
    split.
    + rewrite IH1, He, <- app_assoc. reflexivity.
    + (* the new key is above all keys present, so nothing is overwritten *)
      intro Hh. apply IH2. apply (insert_heap cmp laws); auto.
      intros old Hf. rewrite (find_all_lt cmp laws _ _ Hlt) in Hf. discriminate.
Qed.

(* a left fold preserves what every step preserves *)
Lemma fold_left_inv {A B} (P : A -> Prop) (f : A -> B -> A) :
  (forall a x, P a -> P (f a x)) -> forall l a, P a -> P (fold_left f l a).
Proof. intros H. induction l as [|x l IH]; intros a Ha; cbn; auto. Qed.

Theorem copy_elems : forall src, bst cmp src -> elems (copy_tree cmp src) = elems src.
Proof.
  intros src Hb.
  exact (proj1 (fold_insert_gen (elems src) E I (proj1 (bst_sorted cmp laws src) Hb))).
Qed.

(* no hypothesis on src is needed *)
Theorem copy_bst : forall src, bst cmp (copy_tree cmp src).
Proof.
  intro src. apply (fold_left_inv (bst cmp)); [|exact I].
  intros t it. apply (insert_bst cmp laws).
Qed.

Theorem copy_aggs : forall src, aggs (copy_tree cmp src).
Proof.
  intro src. apply (fold_left_inv aggs); [|exact I].
  intros t it. apply insert_aggs.
Qed.

(* the keys are inserted in strictly ascending order, so no insertion
   overwrites anything; [bst cmp src] is what gives the ascending order. *)
Theorem copy_heap : forall src, bst cmp src -> heap (copy_tree cmp src).
Proof.
  intros src Hb.
  exact (proj2 (fold_insert_gen (elems src) E I (proj1 (bst_sorted cmp laws src) Hb)) I).
Qed.

Theorem copy_shape : forall src, bst cmp src -> heap src ->
  NoDup (map iprio (elems src)) -> shape_of (copy_tree cmp src) = shape_of src.
Proof.
  intros src Hb Hh Hnd. apply (treap_unique cmp); auto.
  - apply copy_bst.
  - apply copy_heap; exact Hb.
  - apply copy_elems; exact Hb.
  - rewrite copy_elems by exact Hb. exact Hnd.
Qed.

Theorem copy_totals : forall src, bst cmp src ->
  totals (copy_tree cmp src) = (Z.of_nat (length (elems src)), sum_bytes (elems src)).
Proof.
  intros src Hb. rewrite (totals_exact _ (copy_aggs src)).
  rewrite copy_elems by exact Hb. reflexivity.
Qed.

Lemma set_item_of_spec : forall t it, item_valid it ->
  set_item_of cmp t it = Some (insert cmp t it).
Proof.
  intros t it Hv. unfold set_item_of. rewrite (set_item_spec cmp) by exact Hv.
  destruct it; reflexivity.
Qed.

Lemma fold_opt_set_item : forall l t, Forall item_valid l ->
  fold_opt (set_item_of cmp) l t = Some (fold_left (fun t it => insert cmp t it) l t).
Proof.
  induction l as [|it l IH]; intros t Hv; cbn [fold_opt fold_left]; [reflexivity|].
  inversion Hv; subst. rewrite set_item_of_spec by assumption. apply IH. assumption.
Qed.

Theorem copy_via_set_item : forall src, Forall item_valid (elems src) ->
  copy_tree_set cmp src = Some (copy_tree cmp src).
Proof. intros src Hv. apply fold_opt_set_item. exact Hv. Qed.

(* conversely, one invalid item makes the SetItem fold fail (CopyTo returns the error) *)
Theorem copy_via_set_item_invalid : forall src,
  ~ Forall item_valid (elems src) -> copy_tree_set cmp src = None.
Proof.
  intros src. unfold copy_tree_set. generalize E.
  induction (elems src) as [|it l IH]; intros t Hn.
  - exfalso. apply Hn. constructor.
  - cbn [fold_opt]. destruct (valid_item (ikey it) (Some (ival it)) (iprio it)) eqn:Ev.
    + rewrite set_item_of_spec by exact Ev. apply IH. intro Hl. apply Hn. constructor; assumption.
    + unfold set_item_of. rewrite (set_item_invalid cmp) by exact Ev. reflexivity.
Qed.

Theorem copy_equivalent : forall src, bst cmp src ->
  let dst := copy_tree cmp src in
  elems dst = elems src /\ bst cmp dst /\ aggs dst /\ heap dst /\
  totals dst = (Z.of_nat (length (elems src)), sum_bytes (elems src)) /\
  (forall k, lookup cmp dst k = lookup cmp src k).
Proof.
  intros src Hb dst. subst dst.
  repeat split; auto using copy_elems, copy_bst, copy_aggs, copy_heap, copy_totals.
  intro k. rewrite !(lookup_spec cmp laws) by auto using copy_bst.
  rewrite copy_elems by exact Hb. reflexivity.
Qed.

End Copy.
