(* For DFaultRefine.v: the collections left by a FAILED Flush still satisfy the invariants of the
   current state, in particular the no-sharing invariant NoDup (node_offs t); and contents_ecolls
   (equal contents up to locations). *)
From GK Require Import Base Order Treap TreapSpec Store StoreSpec StoreRefine Codec CodecProofs
  Disk DiskProofs DStore DStoreRefine DiskFault DiskFaultProofs DFaultRun DFaultHist.
From Coq Require Import Lia ZArith NArith List Bool.
Import ListNotations.
Open Scope Z_scope.

(* writing a tree only ADDS node locations: every offset occurs in the result at least as often
   as in the argument *)
Lemma write_nodes_cnt : forall t f s f1 s1 t1 o,
  write_nodes f s t = (f1, s1, t1) -> (cnt o t <= cnt o t1)%nat.
Proof.
  induction t as [|nl l IHl il it nn nb r IHr]; intros f s f1 s1 t1 o H; cbn [write_nodes] in H.
  - inversion H; subst. lia.
  - destruct nl as [p|]; [inversion H; subst; lia|].
    destruct (write_nodes f s l) as [[fa sa] la] eqn:El.
    destruct (write_nodes fa sa r) as [[fb sb] rb] eqn:Er.
    inversion H; subst; clear H.
    pose proof (IHl _ _ _ _ _ o El). pose proof (IHr _ _ _ _ _ o Er).
    rewrite !cnt_T. cbn [oloc_off]. change (count_occ Z.eq_dec [] o) with 0%nat. lia.
Qed.

Lemma write_tree_cnt t f s f1 s1 t1 o :
  write_tree f s t = (f1, s1, t1) -> (cnt o t <= cnt o t1)%nat.
Proof.
  unfold write_tree. destruct (write_items f s t) as [[fa sa] ta] eqn:E1. intro E2.
  unfold cnt at 1. rewrite <- (write_items_offs _ _ _ _ _ _ E1). exact (write_nodes_cnt _ _ _ _ _ _ o E2).
Qed.

(* so no sharing in the result means no sharing in the argument *)
Lemma flush_bytes_nodup_inv f s cs f1 s1 cs1 :
  flush_bytes f s cs = (f1, s1, cs1) ->
  Forall (fun nc => NoDup (node_offs (c_tree (snd nc)))) cs1 ->
  Forall (fun nc => NoDup (node_offs (c_tree (snd nc)))) cs.
Proof.
  intro H. destruct (flush_bytes_inv _ _ _ _ _ _ H) as (fa & sa & E & _). clear H. revert f s fa sa cs1 E.
  induction cs as [|[n c] cs IH]; intros f s fa sa cs1 E Hn; cbn [write_colls] in E; [constructor|].
  destruct (write_tree f s (c_tree c)) as [[fb sb] t'] eqn:E1.
  destruct (write_colls fb sb cs) as [[fc sc] cs2] eqn:E2.
  inversion E; subst; clear E. inversion Hn; subst. constructor; [|eapply IH; eauto].
  cbn [snd c_tree] in *. eapply nodup_le; [|eassumption]. intro o. eapply write_tree_cnt; eauto.
Qed.

(* the no-sharing invariant comes from the retried Flush (flush_retry_same): it only adds
   locations, and its result has no sharing *)
Theorem flush_fault_inv k torn f size cs f1 s1 cs1 f' size' cs' :
  0 <= size <= blen f -> Forall (coll_ok f size) cs ->
  Forall (fun nc => NoDup (node_offs (c_tree (snd nc)))) cs ->
  flush_fault k torn f size cs = (f1, s1, cs1, true) ->
  flush_bytes f size cs = (f', size', cs') -> size' < two63 ->
  s1 <= size' /\ Forall (coll_ok f1 s1) cs1 /\
  Forall (fun nc => NoDup (node_offs (c_tree (snd nc)))) cs1.
Proof.
  intros Hsz Hok Hnd E Hfl H63.
  pose proof (flush_retry_same _ _ _ _ _ _ _ _ Hsz E) as Hre. rewrite Hfl in Hre.
  destruct (flush_fault_durable _ _ _ _ _ _ _ _ _ Hsz E) as (_ & D).
  destruct (flush_bytes_appends _ _ _ _ _ _ (conj (Z.le_trans _ _ _ (proj1 Hsz) (proj1 D)) (proj2 D)) Hre) as (_ & Hle & _).
  split; [exact Hle|]. split.
  - eapply flush_fault_coll_ok; eauto. lia.
  - destruct (flush_nodup_facts _ _ _ _ _ _ Hok Hsz Hfl H63 Hnd) as (_ & _ & G3).
    eapply flush_bytes_nodup_inv; eauto.
Qed.

(* names, comparators and erased trees determine the erased collections *)
Lemma contents_ecolls : forall cs1 cs,
  map fst cs1 = map fst cs ->
  map (fun nc => c_cmp (snd nc)) cs1 = map (fun nc => c_cmp (snd nc)) cs ->
  map (fun nc => terase (c_tree (snd nc))) cs1 = map (fun nc => terase (c_tree (snd nc))) cs ->
  ecolls cs1 = ecolls cs.
Proof.
  induction cs1 as [|[n1 c1] cs1 IH]; intros [|[n c] cs] H1 H2 H3; try discriminate; [reflexivity|].
  cbn [map fst snd] in H1, H2, H3. inversion H1; inversion H2; inversion H3; subst.
  unfold ecolls, kmap in *. cbn [map fst snd]. f_equal; [|apply IH; assumption].
  unfold ecoll. congruence.
Qed.

Print Assumptions flush_fault_inv.
