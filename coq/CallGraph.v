(* CallGraph.v — theorems over the call graph that tools/gen regenerates
   from the Go source on every run (Generated.v).  The reachable sets in
   g_reach are an UNTRUSTED certificate: closedness is checked here. *)
From Coq Require Import String Bool.
From GK Require Import Base Generated.
Open Scope string_scope.

Definition lookup_fn (n : string) : option gfn :=
  find (fun f => String.eqb (g_name f) n) g_funcs.

Definition mem (n : string) (l : list string) : bool := existsb (String.eqb n) l.

Definition reach_of (n : string) : list string :=
  match find (fun p => String.eqb (fst p) n) g_reach with
  | Some p => snd p
  | None => []
  end.

(* edges of the graph *)
Definition calls (a b : string) : Prop :=
  exists f, lookup_fn a = Some f /\ In b (g_calls f).

Inductive reaches : string -> string -> Prop :=
| reaches_refl a : reaches a a
| reaches_step a b c : calls a b -> reaches b c -> reaches a c.

(* a set is closed when every member is a known function all of whose callees are members *)
Definition closed (S : list string) : bool :=
  forallb (fun n => match lookup_fn n with
                    | Some f => forallb (fun c => mem c S) (g_calls f)
                    | None => false
                    end) S.

Lemma mem_In n l : mem n l = true <-> In n l.
Proof.
  unfold mem. rewrite existsb_exists. split.
  - intros (x & Hin & He). apply String.eqb_eq in He. subst. exact Hin.
  - intros H. exists n. split; [exact H | apply String.eqb_refl].
Qed.

Definition prop_of (p : gfn -> bool) (n : string) : bool :=
  match lookup_fn n with Some f => p f | None => false end.

(* "from entry e no function satisfying bad is reachable", decided with the certificate *)
Definition safe_from (bad : gfn -> bool) (e : string) : bool :=
  let S := reach_of e in
  mem e S && closed S && forallb (fun n => negb (prop_of bad n)) S.

Definition safe_set (bad : gfn -> bool) (es S : list string) : bool :=
  forallb (fun e => mem e S) es && closed S && forallb (fun n => negb (prop_of bad n)) S.

Lemma safe_set_sound bad es S : safe_set bad es S = true ->
  forall e w f, In e es -> reaches e w -> lookup_fn w = Some f -> bad f = false.
Proof.
  unfold safe_set, closed. rewrite !andb_true_iff, !forallb_forall. intros [[Hm Hc] Hb] e w f He Hr.
  assert (Hw : In w S).
  { apply Hm, mem_In in He. induction Hr as [a | a b c (g & Hg & Hin) _ IH]; [exact He|].
    apply IH. specialize (Hc a He). rewrite Hg, forallb_forall in Hc. apply mem_In, Hc, Hin. }
  intro Hf. specialize (Hb w Hw). unfold prop_of in Hb. rewrite Hf in Hb. apply negb_true_iff, Hb.
Qed.

Lemma safe_from_sound bad e : safe_from bad e = true ->
  forall w f, reaches e w -> lookup_fn w = Some f -> bad f = false.
Proof.
  unfold safe_from. intros H w f. apply (safe_set_sound bad [e] (reach_of e)); [|left; reflexivity].
  unfold safe_set. cbn [forallb]. rewrite andb_true_r. exact H.
Qed.

(* The certificates of a list of entries, joined.  A theorem about many entries checks this one set instead of one
   set per entry: the sets overlap almost entirely.  It is computed from g_reach when the file is compiled
   (Generated.v changes with the source). *)
Fixpoint dedup (l : list string) : list string :=
  match l with [] => [] | x :: r => if mem x r then dedup r else x :: dedup r end.
Definition closure (es : list string) : list string := dedup (flat_map reach_of es).

(* the read-only API entry points of the package (and tools/view); the iterator goroutines are started with `go` and are
   entry points too.  C09: none of these reaches a function that writes the file. *)
Definition read_entries : list string :=
  ["NewStore"; "NewStoreEx"; "Store.GetCollection"; "Store.GetCollectionNames";
   "Collection.Name"; "Collection.GetItem"; "Collection.Get"; "Collection.GetAny";
   "Collection.Exist"; "Collection.ExistAny"; "Collection.MinItem"; "Collection.MaxItem";
   "Collection.VisitItemsAscend"; "Collection.VisitItemsDescend";
   "Collection.VisitItemsAscendEx"; "Collection.VisitItemsDescendEx";
   "Collection.VisitItemsAscendBlockEx"; "Collection.VisitItemsRandom";
   "Collection.IterateAscend"; "Collection.IterateDescend";
   "Collection.iteratorVisitorAscend"; "Collection.iteratorVisitorDescend";
   "iterator.Next"; "iterator.Close"; "iterator.Result"; "iterator.Err";
   "Collection.Len"; "Collection.GetTotals"; "Collection.EvictSomeItems";
   "Collection.AllocStats"; "Collection.MarshalJSON";
   "Store.Snapshot"; "Store.Stats"; "Store.Close"; "Store.MakePrivateCollection";
   "Store.SetCollection"; "Store.RemoveCollection";
   "Store.ItemAlloc"; "Store.ItemAddRef"; "Store.ItemDecRef"; "Store.ItemValRead";
   "Item.Copy"; "Item.NumBytes"; "Item.NumValBytes"; "RandBm";
   "view.mainDo"; "view.main"].

Definition read_closure : list string := Eval vm_compute in closure read_entries.

Theorem static_read_paths : forall e w f,
  In e read_entries -> reaches e w -> lookup_fn w = Some f -> g_writes f = false.
Proof. apply (safe_set_sound g_writes read_entries read_closure). vm_compute. reflexivity. Qed.

(* exactly these functions call WriteAt / Truncate *)
Theorem write_sites :
  map g_name (filter g_writes g_funcs) =
  ["Store.FlushRevert"; "Store.ItemValWrite"; "Store.writeRoots"; "itemLoc.write"; "nodeLoc.write"].
Proof. vm_compute. reflexivity. Qed.

(* file I/O, or a call of a user-supplied function (visitor, comparator, block mangler) *)
Definition blocks_or_calls_user (f : gfn) : bool := g_reads f || g_writes f || g_user f.

(* everything reachable from a call made while a lock is held *)
Definition under_closure : list string := Eval vm_compute in closure (flat_map g_under g_funcs).

(* C05 / C18: no function does I/O or calls user code directly under its own lock, and nothing it calls while holding
   the lock can reach a function that does *)
Lemma under_lock_checked :
  forallb (fun f => negb (g_io_under f) && negb (g_user_under f)) g_funcs &&
  safe_set blocks_or_calls_user (flat_map g_under g_funcs) under_closure = true.
Proof. vm_compute. reflexivity. Qed.

Theorem no_callout_under_lock : forall f, In f g_funcs ->
  g_io_under f = false /\ g_user_under f = false /\
  forall c w h, In c (g_under f) -> reaches c w -> lookup_fn w = Some h ->
                g_reads h = false /\ g_writes h = false /\ g_user h = false.
Proof.
  intros f Hf. destruct (proj1 (andb_true_iff _ _) under_lock_checked) as [Hd Hs].
  rewrite forallb_forall in Hd. specialize (Hd f Hf).
  rewrite andb_true_iff, !negb_true_iff in Hd. split; [apply Hd|]. split; [apply Hd|].
  intros c w h Hc Hr Hh.
  assert (Hbad : blocks_or_calls_user h = false).
  { apply (safe_set_sound _ _ _ Hs c w h); [apply in_flat_map; exists f; split|..]; assumption. }
  unfold blocks_or_calls_user in Hbad. rewrite !orb_false_iff in Hbad. tauto.
Qed.

(* Lock order (C05 / C18: no deadlock on gkvlite's own locks).  g_lock_order lists every pair (A, B) such that lock B is
   acquired -- directly or anywhere below a callee -- while lock A is held.  The order below is a linear extension of it,
   so the relation is acyclic and no two goroutines can wait for each other's gkvlite locks. *)
Definition lock_rank : list string :=
  ["Store.m"; "rootLock"; "freeNodeLock"; "freeNodeLocLock"; "freeRootNodeLocLock"; "itemLocGL"; "nodeLocGL"].

Fixpoint index_of (n : string) (l : list string) : option nat :=
  match l with
  | [] => None
  | x :: xs => if String.eqb n x then Some O else option_map S (index_of n xs)
  end.

Definition forward (e : string * string) : bool :=
  match index_of (fst e) lock_rank, index_of (snd e) lock_rank with
  | Some i, Some j => Nat.ltb i j
  | _, _ => false
  end.

Lemma lock_order_checked : forallb forward g_lock_order = true.
Proof. vm_compute. reflexivity. Qed.

Theorem lock_order_acyclic : forall a b, In (a, b) g_lock_order ->
  exists i j, index_of a lock_rank = Some i /\ index_of b lock_rank = Some j /\ (i < j)%nat.
Proof.
  intros a b H. pose proof lock_order_checked as Hc. rewrite forallb_forall in Hc.
  specialize (Hc (a, b) H). unfold forward in Hc. cbn [fst snd] in Hc.
  destruct (index_of a lock_rank) as [i|]; [|discriminate].
  destruct (index_of b lock_rank) as [j|]; [|discriminate].
  exists i, j. repeat split. apply PeanoNat.Nat.ltb_lt. exact Hc.
Qed.

(* hence no cycle of two acquisitions; a longer one is excluded the same way, the ranks increasing along it *)
Lemma lock_chain_increases : forall l a b, In (a, b) g_lock_order -> In (b, l) g_lock_order -> a <> l.
Proof.
  intros l a b H1 H2 He. subst l.
  destruct (lock_order_acyclic _ _ H1) as (i & j & Hi & Hj & Hlt).
  destruct (lock_order_acyclic _ _ H2) as (j' & i' & Hj' & Hi' & Hlt').
  rewrite Hi in Hi'. rewrite Hj in Hj'. injection Hi' as <-. injection Hj' as <-. lia.
Qed.
