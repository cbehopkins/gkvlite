(* determineBlocks (collection.go): the whole translated body, executed, is Blocks.determine_blocks, for every item
   count. *)
From GK Require Import Base Treap Codec Blocks GExpr Generated DecBase GExprFacts.
From Coq Require Import ZArith NArith List String Bool Lia.
Import ListNotations.
Open Scope string_scope.
Open Scope list_scope.
Open Scope Z_scope.

(* the translated body, executed on any integer count *)
Lemma db_exec n :
  gexec 50 (db_env n) (body "Collection.determineBlocks") =
  RRet (if n >? 1024 then [1024; Z.quot n 1024 + (if Z.rem n 1024 =? 0 then 0 else 1); 0] else [n; 1; 0]).
Proof.
  gsimpl. change (0 =? 0) with true. change (1024 =? 0) with false. cbv beta iota.
  destruct (n >? 1024); [|reflexivity]. change (1 =? 0) with false. cbv beta iota.
  destruct (Z.rem n 1024 =? 0); [rewrite Z.add_0_r|]; reflexivity.
Qed.

(* Blocks.determine_blocks in the integers of the source; max_block_cnt is handled as a variable, so that no
   arithmetic runs on the unary numeral *)
Lemma determine_blocks_Z cnt :
  [Z.of_nat (fst (determine_blocks cnt)); Z.of_nat (snd (determine_blocks cnt)); 0] =
  let n := Z.of_nat cnt in
  if n >? 1024 then [1024; Z.quot n 1024 + (if Z.rem n 1024 =? 0 then 0 else 1); 0] else [n; 1; 0].
Proof.
  cbv zeta. unfold determine_blocks. change 1024 with (Z.of_nat max_block_cnt).
  assert (HM : (0 < max_block_cnt)%nat) by (apply Nat.ltb_lt; reflexivity).
  generalize dependent max_block_cnt. intros M HM.
  rewrite Z.gtb_ltb, Z.quot_div_nonneg, Z.rem_mod_nonneg, <- Nat2Z.inj_div, <- Nat2Z.inj_mod by lia.
  destruct (Nat.ltb_spec M cnt), (Z.ltb_spec (Z.of_nat M) (Z.of_nat cnt)); try lia; [|reflexivity].
  cbn [fst snd]. rewrite Nat2Z.inj_add. do 3 f_equal.
  destruct (Nat.eqb_spec (cnt mod M) 0) as [->|], (Z.eqb_spec (Z.of_nat (cnt mod M)) 0); try reflexivity; lia.
Qed.

Theorem determine_blocks_is_source : forall cnt : nat,
  gexec 50 (db_env (Z.of_nat cnt)) (body "Collection.determineBlocks") =
  RRet [Z.of_nat (fst (determine_blocks cnt)); Z.of_nat (snd (determine_blocks cnt)); 0].
Proof. intro cnt. rewrite db_exec, determine_blocks_Z. reflexivity. Qed.
