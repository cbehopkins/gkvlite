(* LazySeq2Proofs.v — proofs about LazySeq2.v: sequences of calls with whole visits, Len and GetTotals.
   A visit is taken one node at a time (LazyVisit.vnode: the step that visit_vt and visit_treads share); a call is its
   touches, the tree it leaves and the offsets it evicts (sstep2_eq).  Then: a visit from a memory that holds none of
   the tree's records reads what LazyVisit says (visit_unloaded), with the counterexample for equal offsets, and what
   a visit evicts. *)
From GK Require Import Base Treap TreapSpec Codec CodecProofs Disk DiskProofs Lazy LazyProofs LazyVisit LazyMut LazyMutProofs LazySeq LazySeqProofs LazySeq2.
From Coq Require Import Lia ZArith NArith List Bool Permutation.
Import ListNotations.
Open Scope Z_scope.

Definition key_only_op2 (o : sop2) : bool :=
  match o with S1 o => key_only_op o | SVis _ _ wv _ => negb wv | SLen => true | STot => true end.

(* LazySeq2.v and LazyVisit.v each define ascendChoice / descendChoice *)
Lemma vch_vchoice cmp asc target it : vch cmp asc target it = vchoice cmp asc target it.
Proof. reflexivity. Qed.

Lemma visit_vt_T cmp asc nl l il it nn nb r target wv b :
  visit_vt cmp asc (T nl l il it nn nb r) target wv b =
  vnode (vchoice cmp asc target it)
    ((match nl with Some p => [VN p] | None => [] end) ++ (match il with Some q => [VI q it false] | None => [] end))
    (match il with Some q => [VI q it wv] | None => [] end)
    (visit_vt cmp asc (if asc then l else r) target wv) (visit_vt cmp asc (if asc then r else l) target wv) b.
Proof. rewrite <- vch_vchoice. reflexivity. Qed.

Lemma visit_vt_ok t0 b cmp asc target wv : (wv = true -> b = true) ->
  forall t bud, locs_sub (NPof t0) (IPof t0) t ->
  Forall (vt_ok t0 b) (fst (fst (visit_vt cmp asc t target wv bud))).
Proof.
  intros Hb. induction t as [|nl l IHl il it nn nb r IHr]; intros bud H; [constructor|].
  apply locs_sub_T in H. destruct H as (Hn & Hi & Hl & Hr). rewrite visit_vt_T. apply vnode_Forall.
  - apply Forall_app. split; [apply vn_ok; exact Hn|apply vi_ok; [exact Hi|discriminate]].
  - apply vi_ok; assumption.
  - intro b'. destruct asc; auto.
  - intro b'. destruct asc; auto.
Qed.

Theorem visit_vt_in_tree : forall cmp asc t target wv bud x,
  In x (fst (fst (visit_vt cmp asc t target wv bud))) ->
  match x with
  | VN p => In p (node_locs t)
  | VI q it w => In (q, it) (item_locs t) /\ (w = true -> wv = true)
  end.
Proof.
  intros cmp asc t target wv bud x Hx.
  pose proof (visit_vt_ok t wv cmp asc target wv (fun e => e) t bud (locs_sub_self t)) as H.
  rewrite Forall_forall in H. specialize (H x Hx).
  destruct x as [p|q it w]; exact H.
Qed.
Print Assumptions visit_vt_in_tree.

Theorem visit_vt_budget : forall cmp asc t target wv b, persisted t ->
  snd (fst (visit_vt cmp asc t target wv b)) = snd (fst (visit_treads cmp asc t target wv b)) /\
  snd (visit_vt cmp asc t target wv b) = snd (visit_treads cmp asc t target wv b).
Proof.
  intros cmp asc t target wv.
  induction t as [|nl l il it nn nb r IHT IHF] using (tree_dir_ind asc); intros b Hper; [split; reflexivity|].
  destruct (persisted_child asc _ _ _ _ _ _ _ Hper) as (p & q & -> & -> & PT & PF).
  rewrite visit_vt_T, visit_treads_T.
  refine (proj2 (vnode_rel (fun _ _ => True) _ _ _ _ _ _ _ _ _ _ _ _ _ _ _)); auto.
  - intro b'. split; [exact I|apply IHT; exact PT].
  - intro b'. split; [exact I|apply IHF; exact PF].
Qed.
Print Assumptions visit_vt_budget.

Definition tot_touches (t : tree) : list vtouch :=
  match t with T (Some p) _ _ _ _ _ _ => [VN p] | _ => [] end.

(* the visit of Len *)
Definition len_touches (cmp : bytes -> bytes -> comparison) (t : tree) : list vtouch :=
  match tmin t with
  | Some mi => fst (fst (visit_vt cmp true t (ikey mi) false (S (Treap.size t))))
  | None => []
  end.

Definition touches2 (cmp : bytes -> bytes -> comparison) (t : tree) (o : sop2) : list vtouch :=
  match o with
  | S1 o => touches cmp t o
  | SVis asc target wv b => fst (fst (visit_vt cmp asc t target wv b))
  | SLen => walk_t true false t ++ len_touches cmp t
  | STot => tot_touches t
  end.

Definition evicted2 (cmp : bytes -> bytes -> comparison) (t : tree) (o : sop2) : list Z :=
  match o with
  | SVis asc target wv b => item_offs (fst (fst (visit_vt cmp asc t target wv b)))
  | SLen => item_offs (len_touches cmp t)
  | _ => []
  end.

Definition after2 (cmp : bytes -> bytes -> comparison) (t : tree) (o : sop2) : tree :=
  match o with S1 o => after cmp t o | _ => t end.

Lemma evict_nil m : evict m [] = m.
Proof. unfold evict. induction m as [|e m IH]; [reflexivity|]. cbn [filter existsb negb]. f_equal. exact IH. Qed.

Lemma sstep2_eq cmp t m o :
  sstep2 cmp t m o =
  (fst (vreads m (touches2 cmp t o)), after2 cmp t o,
   evict (snd (vreads m (touches2 cmp t o))) (evicted2 cmp t o)).
Proof.
  destruct o as [o|asc target wv b| |]; cbn [sstep2 touches2 evicted2 after2].
  - rewrite sstep_eq, evict_nil. reflexivity.
  - destruct (vreads m _); reflexivity.
  - unfold len_touches. destruct (tmin t) as [mi|].
    + rewrite vreads_app. destruct (vreads m (walk_t true false t)) as [r1 m1]. cbn [fst snd].
      destruct (vreads m1 _); reflexivity.
    + rewrite app_nil_r. cbn [item_offs flat_map]. rewrite evict_nil. destruct (vreads m _); reflexivity.
  - rewrite evict_nil. fold (tot_touches t). destruct (vreads m _); reflexivity.
Qed.

Lemma srun_reads2_cons cmp t m o r :
  srun_reads2 cmp t m (o :: r) =
  fst (vreads m (touches2 cmp t o)) ::
  srun_reads2 cmp (after2 cmp t o) (evict (snd (vreads m (touches2 cmp t o))) (evicted2 cmp t o)) r.
Proof. cbn [srun_reads2]. rewrite sstep2_eq. reflexivity. Qed.

Lemma touches2_ok cmp t0 t o : locs_sub (NPof t0) (IPof t0) t ->
  Forall (vt_ok t0 (negb (key_only_op2 o))) (touches2 cmp t o).
Proof.
  intro H. destruct o as [o|asc target wv b| |]; cbn [touches2 key_only_op2]; rewrite ?negb_involutive.
  - apply touches_ok. exact H.
  - apply visit_vt_ok; auto.
  - apply Forall_app. split; [apply walk_t_ok; auto|].
    unfold len_touches. destruct (tmin t); [apply visit_vt_ok; auto|constructor].
  - destruct t as [|nl l il it nn nb r]; [constructor|].
    apply locs_sub_T in H. apply vn_ok. apply H.
Qed.

Lemma after2_locs NP IP cmp t o : locs_sub NP IP t -> locs_sub NP IP (after2 cmp t o).
Proof. intro H. destruct o; cbn [after2]; [apply after_locs|..]; exact H. Qed.

Lemma seq2_gen cmp t0 : forall ops t m, locs_sub (NPof t0) (IPof t0) t ->
  Forall2 (fun o rs => Forall (vk (negb (key_only_op2 o)) t0) rs) ops (srun_reads2 cmp t m ops).
Proof.
  induction ops as [|o r IH]; intros t m H; [constructor|].
  rewrite srun_reads2_cons. constructor.
  - apply vreads_vk. apply touches2_ok. exact H.
  - apply IH. apply after2_locs. exact H.
Qed.

Theorem seq2_key_only : forall cmp t0 ops m,
  forallb key_only_op2 ops = true ->
  Forall (Forall (fun r => in_node t0 r \/ in_keypart t0 r)) (srun_reads2 cmp t0 m ops).
Proof.
  intros cmp t0 ops m Hk. apply (runs_key_only key_only_op2 t0 ops); [|exact Hk].
  apply seq2_gen. apply locs_sub_self.
Qed.
Print Assumptions seq2_key_only.

Theorem seq2_any : forall cmp t0 ops m,
  Forall (Forall (fun r => in_node t0 r \/ in_keypart t0 r \/ in_value t0 r)) (srun_reads2 cmp t0 m ops).
Proof. intros cmp t0 ops m. apply (runs_any key_only_op2 t0 ops). apply seq2_gen. apply locs_sub_self. Qed.
Print Assumptions seq2_any.

Theorem seq2_never_reads_values : forall cmp f t0 ops m,
  rep f t0 -> records_disjoint t0 -> forallb key_only_op2 ops = true ->
  Forall (Forall (fun r => forall q it, In (q, it) (item_locs t0) -> rd_disjoint r (value_range q it))) (srun_reads2 cmp t0 m ops).
Proof.
  intros cmp f t0 ops m Hrep Hd Hk. apply (runs_never_value f); [exact Hrep|exact Hd|].
  apply seq2_key_only. exact Hk.
Qed.
Print Assumptions seq2_never_reads_values.

Theorem seq2_reads_file_spec : forall cmp f t b ops,
  rep f t -> persisted t -> below t b -> (Treap.size t <= S (length f))%nat ->
  seq2_reads_file cmp f (root_loc t) b ops = Some (srun_reads2 cmp t [] ops).
Proof.
  intros cmp f t b ops Hrep Hper Hb Hs. unfold seq2_reads_file.
  rewrite (load_rep_file f t b Hrep Hper Hb Hs). reflexivity.
Qed.
Print Assumptions seq2_reads_file_spec.

Lemma mem_find_evict o offs : forall m,
  mem_find o (evict m offs) = if seen o offs then None else mem_find o m.
Proof.
  induction m as [|[o' b] r IH]; [destruct (seen o offs); reflexivity|].
  unfold evict in *. cbn [filter fst]. fold (seen o' offs). destruct (o =? o') eqn:E.
  - apply Z.eqb_eq in E. subst o'. rewrite mem_find_cons_eq.
    destruct (seen o offs); cbn [negb]; [exact IH|apply mem_find_cons_eq].
  - apply Z.eqb_neq in E. rewrite (mem_find_cons_ne o o' b r E).
    destruct (negb (seen o' offs)); [rewrite mem_find_cons_ne by exact E|]; exact IH.
Qed.

(* a record in memory stays as it is unless it is touched as an item *)
Lemma vreads_keep : forall ts m o fl, mem_find o m = Some fl -> ~ In o (item_offs ts) ->
  mem_find o (snd (vreads m ts)) = Some fl.
Proof.
  induction ts as [|x r IH]; intros m o fl Hm Hn; [exact Hm|].
  rewrite vreads_snd_cons.
  unfold item_offs in Hn. cbn [flat_map] in Hn. rewrite in_app_iff in Hn.
  apply IH; [|intro Hx; apply Hn; right; exact Hx].
  destruct (Z.eq_dec o (voff x)) as [e|Hne]; [|rewrite mem_find_vstep by exact Hne; exact Hm].
  destruct x as [p|q it wv]; cbn [voff vstep_mem] in *.
  - subst o. rewrite Hm. exact Hm.
  - exfalso. apply Hn. left. left. symmetry. exact e.
Qed.

Theorem visit_evicts_items : forall cmp t m asc target wv b rs t' m',
  sstep2 cmp t m (SVis asc target wv b) = (rs, t', m') ->
  t' = t /\
  (forall o, In o (item_offs (fst (fst (visit_vt cmp asc t target wv b)))) -> mem_find o m' = None) /\
  (forall o fl, mem_find o m = Some fl -> ~ In o (item_offs (fst (fst (visit_vt cmp asc t target wv b)))) -> mem_find o m' = Some fl).
Proof.
  intros cmp t m asc target wv b rs t' m' Hs. rewrite sstep2_eq in Hs. cbn [touches2 evicted2 after2] in Hs.
  inversion Hs; subst. split; [reflexivity|]. split.
  - intros o Ho. rewrite mem_find_evict. apply seen_spec in Ho. rewrite Ho. reflexivity.
  - intros o fl Hm Hn. rewrite mem_find_evict.
    destruct (seen o _) eqn:X; [apply seen_spec in X; contradiction|].
    apply vreads_keep; assumption.
Qed.
Print Assumptions visit_evicts_items.

Example ex_seq2 : exists t k, persisted t /\
  exists r1 r2, srun_reads2 cmp_bytes t [] [SVis true [] false 9%nat; S1 (SGet k false); S1 (SGet k false)] = [r1; r2; []] /\
  r1 <> [] /\ (length r2 = 2)%nat.
Proof.
  exists ex_tree, [98%N]. split.
  - cbn [ex_tree persisted]. repeat split; discriminate.
  - eexists. eexists. split; [vm_compute; reflexivity|]. split; [discriminate|reflexivity].
Qed.
Print Assumptions ex_seq2.

Example ex_seq2_values :
  srun_reads2 cmp_bytes ex_tree [] [SVis true [] false 9%nat; S1 (SGet [98%N] false); S1 (SGet [98%N] false); SLen; STot] =
  [[Rd 200 52; Rd 30 16; Rd 46 1; Rd 100 52; Rd 0 16; Rd 16 1]; [Rd 30 16; Rd 46 1]; []; [Rd 0 16; Rd 16 1]; []].
Proof. vm_compute. reflexivity. Qed.

(* for first_visit_is_lazyvisit_distinct below, persisted t alone does not suffice: a node record and an item
   record at the same offset *)
Definition cx_tree : tree :=
  T (Some (mkPloc 0 52)) E (Some (mkPloc 0 18)) (mkItem [97%N] [1%N] 3) 1 2 E.

Example first_visit_needs_distinct_offsets :
  persisted cx_tree /\
  hd [] (srun_reads2 cmp_bytes cx_tree [] [SVis true [] false 1%nat]) = [Rd 0 52] /\
  fst (fst (visit_treads cmp_bytes true cx_tree [] false 1%nat)) = [Rd 0 52; Rd 0 16; Rd 16 1].
Proof.
  split; [cbn [cx_tree persisted]; repeat split; discriminate|].
  split; vm_compute; reflexivity.
Qed.
Print Assumptions first_visit_needs_distinct_offsets.

(* the offsets of all records of a tree, node by node (records t lists all nodes before all items) *)
Fixpoint record_offs (t : tree) : list Z :=
  match t with
  | E => []
  | T nl l il _ _ _ r =>
    (match nl with Some p => [poff p] | None => [] end) ++ (match il with Some q => [poff q] | None => [] end) ++
    record_offs l ++ record_offs r
  end.

Lemma record_offs_perm t : Permutation (record_offs t) (map (fun x => fst (rspan x)) (records t)).
Proof.
  unfold records, node_records, item_records. rewrite map_app, !map_map.
  apply (Permutation_count_occ Z.eq_dec). intro x.
  induction t as [|nl l IHl il it nn nb r IHr]; [reflexivity|].
  cbn [record_offs node_locs item_locs].
  rewrite count_occ_app in IHl, IHr.
  rewrite !map_app, !count_occ_app, IHl, IHr.
  destruct nl, il; cbn [map rspan fst app]; lia.
Qed.

Lemma visit_vt_frame cmp asc t target wv b m o : ~ In o (record_offs t) ->
  mem_find o (snd (vreads m (fst (fst (visit_vt cmp asc t target wv b))))) = mem_find o m.
Proof.
  intro H. apply vreads_frame. intro Hi. apply in_map_iff in Hi. destruct Hi as (x & <- & Hx). apply H.
  apply (Permutation_in _ (Permutation_sym (record_offs_perm t))).
  pose proof (visit_vt_in_tree cmp asc t target wv b x Hx) as Hx'. destruct x as [p|q it w]; cbn [voff].
  - apply (in_map (fun y => fst (rspan y)) _ (RNode p)), in_node_records, Hx'.
  - apply (in_map (fun y => fst (rspan y)) _ (RItem q it)), in_item_records, Hx'.
Qed.

(* a visit from any memory that holds no record of t; what it leaves outside the records of t is visit_vt_frame *)
Lemma visit_unloaded cmp asc target wv : forall t, persisted t -> NoDup (record_offs t) -> forall b m,
  (forall o, In o (record_offs t) -> mem_find o m = None) ->
  visit_treads cmp asc t target wv b =
  (fst (vreads m (fst (fst (visit_vt cmp asc t target wv b)))),
   snd (fst (visit_vt cmp asc t target wv b)), snd (visit_vt cmp asc t target wv b)).
Proof.
  induction t as [|nl l il it nn nb r IHT IHF] using (tree_dir_ind asc); intros Hper Hnd b m Hm; [reflexivity|].
  destruct (persisted_child asc _ _ _ _ _ _ _ Hper) as (p & q & -> & -> & PT & PF).
  set (cT := if asc then l else r) in *. set (cF := if asc then r else l) in *.
  assert (HP : Permutation (poff p :: poff q :: record_offs cT ++ record_offs cF)
                           (record_offs (T (Some p) l (Some q) it nn nb r))).
  { cbn [record_offs app]. destruct asc; [reflexivity|]. do 2 apply perm_skip. apply Permutation_app_comm. }
  apply (Permutation_NoDup (Permutation_sym HP)) in Hnd.
  pose proof (fun o Ho => Hm o (Permutation_in o HP Ho)) as Hm'. clear HP Hm.
  apply NoDup_cons_iff in Hnd. destruct Hnd as [Hp ND]. apply NoDup_cons_iff in ND. destruct ND as [Hq ND].
  apply NoDup_app_iff in ND. destruct ND as (NT & NF & HTF).
  (* M: the memory on entering a child: the node's own two records, the item key-only *)
  set (M := (poff q, false) :: (poff p, false) :: m).
  assert (E0 : vreads m ([VN p] ++ [VI q it false]) = (node_reads p ++ item_reads q it false, M)).
  { cbn [app vreads]. rewrite (Hm' (poff p)) by (left; reflexivity).
    rewrite mem_find_cons_ne by (intro e; apply Hp; left; exact e).
    rewrite (Hm' (poff q)) by (right; left; reflexivity). rewrite app_nil_r. reflexivity. }
  assert (HM : forall o, In o (record_offs cT ++ record_offs cF) -> mem_find o M = None).
  { intros o Ho. unfold M. rewrite !mem_find_cons_ne; [apply Hm'; right; right; exact Ho| |]; intros ->;
      [apply Hp; right; exact Ho|exact (Hq Ho)]. }
  specialize (IHT PT NT). specialize (IHF PF NF).
  rewrite visit_vt_T, visit_treads_T. fold cT cF. unfold vnode.
  destruct (vchoice cmp asc target it).
  - rewrite (IHT b M) by (intros o Ho; apply HM, in_or_app; left; exact Ho).
    pose proof (fun o => visit_vt_frame cmp asc cT target wv b M o) as FT.
    destruct (visit_vt cmp asc cT target wv b) as [[r1 b1] k1]. cbn [fst snd] in FT |- *.
    set (M2 := snd (vreads M r1)) in *.
    (* the first side leaves the item as it was: the re-read before the delivery costs the value only *)
    assert (ED : fst (vreads M2 [VI q it wv]) = if wv then item_reads q it true else []).
    { rewrite vreads_fst_cons. cbn [vstep_reads vreads fst].
      rewrite (FT _ (fun H => Hq (in_or_app _ _ _ (or_introl H)))).
      unfold M. rewrite mem_find_cons_eq, app_nil_r. destruct wv; reflexivity. }
    destruct k1; [destruct b1 as [|b']|]; cbn [fst snd].
    + rewrite vreads_app, E0, !vreads_app. cbn [fst snd]. fold M2. rewrite ED. reflexivity.
    + rewrite (IHF b' (snd (vreads M2 [VI q it wv]))).
      * destruct (visit_vt cmp asc cF target wv b') as [[r2 b2] k2]. cbn [fst snd].
        rewrite vreads_app, E0, !vreads_app. cbn [fst snd]. fold M2. rewrite ED. reflexivity.
      * intros o Ho. rewrite vreads_frame; [rewrite FT; [apply HM, in_or_app; right; exact Ho|]|].
        -- intro Ho'. exact (HTF o Ho' Ho).
        -- intros [<-|[]]. apply Hq, in_or_app. right. exact Ho.
    + rewrite vreads_app, E0. reflexivity.
  - rewrite (IHF b M) by (intros o Ho; apply HM, in_or_app; right; exact Ho).
    destruct (visit_vt cmp asc cF target wv b) as [[r2 b2] k2]. cbn [fst snd]. rewrite vreads_app, E0. reflexivity.
Qed.

Theorem visit_unloaded_is_lazyvisit : forall cmp asc t target wv b m, persisted t -> NoDup (record_offs t) ->
  (forall o, In o (record_offs t) -> mem_find o m = None) ->
  srun_reads2 cmp t m [SVis asc target wv b] = [fst (fst (visit_treads cmp asc t target wv b))].
Proof.
  intros cmp asc t target wv b m Hper Hnd Hm. rewrite srun_reads2_cons. cbn [srun_reads2 touches2].
  rewrite (visit_unloaded cmp asc target wv t Hper Hnd b m Hm). reflexivity.
Qed.
Print Assumptions visit_unloaded_is_lazyvisit.

Theorem first_visit_is_lazyvisit_distinct : forall cmp asc t target wv b, persisted t -> NoDup (record_offs t) ->
  srun_reads2 cmp t [] [SVis asc target wv b] = [fst (fst (visit_treads cmp asc t target wv b))].
Proof.
  intros cmp asc t target wv b Hper Hnd. apply visit_unloaded_is_lazyvisit; [exact Hper|exact Hnd|].
  intros o _. reflexivity.
Qed.
Print Assumptions first_visit_is_lazyvisit_distinct.

Lemma rep_disjoint_NoDup f t : rep f t -> records_disjoint t -> NoDup (record_offs t).
Proof.
  intros Hrep Hd. apply (Permutation_NoDup (Permutation_sym (record_offs_perm t))).
  exact (records_offs_NoDup f t Hrep Hd).
Qed.

Theorem first_visit_is_lazyvisit_rep : forall cmp f asc t target wv b,
  rep f t -> persisted t -> records_disjoint t ->
  hd [] (srun_reads2 cmp t [] [SVis asc target wv b]) = fst (fst (visit_treads cmp asc t target wv b)).
Proof.
  intros cmp f asc t target wv b Hrep Hper Hd.
  rewrite (first_visit_is_lazyvisit_distinct cmp asc t target wv b Hper (rep_disjoint_NoDup f t Hrep Hd)). reflexivity.
Qed.
Print Assumptions first_visit_is_lazyvisit_rep.

Theorem first_visit_is_visit_reads : forall cmp f asc t target wv b fuel,
  rep f t -> persisted t -> records_disjoint t -> (height t <= fuel)%nat ->
  hd [] (srun_reads2 cmp t [] [SVis asc target wv b]) = fst (fst (visit_reads fuel cmp asc f (root_loc t) target wv b)).
Proof.
  intros cmp f asc t target wv b fuel Hrep Hper Hd Hh.
  rewrite (visit_reads_tree cmp asc f target wv t fuel b Hrep Hper Hh).
  apply (first_visit_is_lazyvisit_rep cmp f); assumption.
Qed.
Print Assumptions first_visit_is_visit_reads.
