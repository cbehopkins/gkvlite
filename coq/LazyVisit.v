(* LazyVisit.v — the ReadAt calls of a whole visit (VisitItemsAscend / Descend) on an uncached persisted tree
   (C19).  As in LazyProofs.v: the reads are recomputed on the tree itself (visit_treads), Lazy.visit_reads equals
   that under rep / persisted (visit_reads_tree), and the rest is reasoned on the tree. *)
From GK Require Import Base Treap TreapSpec Store Codec CodecProofs Disk DiskProofs Lazy LazyProofs.
From Coq Require Import Lia ZArith NArith List Bool.
Import ListNotations.
Open Scope Z_scope.

(* ascendChoice / descendChoice *)
Definition vchoice (cmp : bytes -> bytes -> comparison) (asc : bool) (target : bytes) (it : item) : bool :=
  if asc then match cmp target (ikey it) with Gt => false | _ => true end
  else match cmp target (ikey it) with Gt => true | _ => false end.

(* the reads of a visit, as a function of the (persisted) tree *)
Fixpoint visit_treads (cmp : bytes -> bytes -> comparison) (asc : bool) (t : tree)
         (target : bytes) (wv : bool) (b : nat) : list rd * nat * bool :=
  match t with
  | E => ([], b, true)
  | T (Some p) l (Some q) it _ _ r =>
    let r0 := node_reads p ++ item_reads q it false in
    let choiceT := if asc then l else r in
    let choiceF := if asc then r else l in
    if vchoice cmp asc target it then
      let '(r1, b1, k1) := visit_treads cmp asc choiceT target wv b in
      if k1 then
        let rv := if wv then item_reads q it true else [] in
        match b1 with
        | O => (r0 ++ r1 ++ rv, O, false)
        | S b' =>
          let '(r2, b2, k2) := visit_treads cmp asc choiceF target wv b' in
          (r0 ++ r1 ++ rv ++ r2, b2, k2)
        end
      else (r0 ++ r1, b1, false)
    else
      let '(r2, b2, k2) := visit_treads cmp asc choiceF target wv b in
      (r0 ++ r2, b2, k2)
  | T _ _ _ _ _ _ _ => ([], b, true)
  end.

(* one node of a visit: pre on entering, vT the side visited first, rv before the delivery, vF the other side.
   (Treap.visit is not of this form: where the node is skipped it returns the recursive call itself.) *)

Definition vnode {A} (ch : bool) (pre rv : list A) (vT vF : nat -> list A * nat * bool) (b : nat) : list A * nat * bool :=
  if ch then
    let '(r1, b1, k1) := vT b in
    if k1 then
      match b1 with
      | O => (pre ++ r1 ++ rv, O, false)
      | S b' => let '(r2, b2, k2) := vF b' in (pre ++ r1 ++ rv ++ r2, b2, k2)
      end
    else (pre ++ r1, b1, false)
  else
    let '(r2, b2, k2) := vF b in (pre ++ r2, b2, k2).

Lemma visit_treads_T cmp asc p l q it nn nb r target wv b :
  visit_treads cmp asc (T (Some p) l (Some q) it nn nb r) target wv b =
  vnode (vchoice cmp asc target it) (node_reads p ++ item_reads q it false) (if wv then item_reads q it true else [])
    (visit_treads cmp asc (if asc then l else r) target wv) (visit_treads cmp asc (if asc then r else l) target wv) b.
Proof. reflexivity. Qed.

Definition rel3 {A B} (R : list A -> list B -> Prop) (x : list A * nat * bool) (y : list B * nat * bool) : Prop :=
  R (fst (fst x)) (fst (fst y)) /\ snd (fst x) = snd (fst y) /\ snd x = snd y.

Lemma vnode_rel {A B} (R : list A -> list B -> Prop) ch pre pre' rv rv' vT vT' vF vF' b :
  (forall a a' c c', R a a' -> R c c' -> R (a ++ c) (a' ++ c')) ->
  R pre pre' -> R rv rv' ->
  (forall b', rel3 R (vT b') (vT' b')) -> (forall b', rel3 R (vF b') (vF' b')) ->
  rel3 R (vnode ch pre rv vT vF b) (vnode ch pre' rv' vT' vF' b).
Proof.
  intros Happ Hp Hv HT HF. unfold vnode. destruct ch.
  - specialize (HT b). destruct (vT b) as [[r1 b1] k1], (vT' b) as [[r1' b1'] k1'].
    destruct HT as (A1 & A2 & A3). cbn [fst snd] in A1, A2, A3. subst b1' k1'.
    destruct k1; [|split; [apply Happ; assumption|split; reflexivity]].
    destruct b1 as [|b']; [split; [apply Happ; [|apply Happ]; assumption|split; reflexivity]|].
    specialize (HF b'). destruct (vF b') as [[r2 b2] k2], (vF' b') as [[r2' b2'] k2'].
    destruct HF as (B1 & B2 & B3). split; [|split; assumption].
    apply Happ; [|apply Happ; [|apply Happ]]; assumption.
  - specialize (HF b). destruct (vF b) as [[r2 b2] k2], (vF' b) as [[r2' b2'] k2'].
    destruct HF as (B1 & B2 & B3). split; [apply Happ; assumption|split; assumption].
Qed.

Lemma vnode_ext {A} ch (pre rv : list A) vT vT' vF vF' b :
  (forall b', vT b' = vT' b') -> (forall b', vF b' = vF' b') -> vnode ch pre rv vT vF b = vnode ch pre rv vT' vF' b.
Proof. intros HT HF. unfold vnode. rewrite HT. destruct ch; [destruct (vT' b) as [[r1 [|b1]] [|]]|]; rewrite ?HF; reflexivity. Qed.

Lemma vnode_Forall {A} (P : A -> Prop) ch pre rv vT vF b :
  Forall P pre -> Forall P rv ->
  (forall b', Forall P (fst (fst (vT b')))) -> (forall b', Forall P (fst (fst (vF b')))) ->
  Forall P (fst (fst (vnode ch pre rv vT vF b))).
Proof.
  intros Hp Hv HT HF.
  refine (proj1 (vnode_rel (fun a (_ : list A) => Forall P a) ch pre pre rv rv vT vT vF vF b _ Hp Hv _ _)).
  - intros a a' c c' Ha Hc. apply Forall_app. split; assumption.
  - intro b'. split; [apply HT|split; reflexivity].
  - intro b'. split; [apply HF|split; reflexivity].
Qed.

Lemma visit_reads_tree cmp asc f target wv : forall t fuel b,
  rep f t -> persisted t -> (height t <= fuel)%nat ->
  visit_reads fuel cmp asc f (root_loc t) target wv b = visit_treads cmp asc t target wv b.
Proof.
  induction t as [|nl l il it nn nb r IHT IHF] using (tree_dir_ind asc); intros fuel b Hrep Hper Hh.
  - destruct fuel; reflexivity.
  - destruct (rep_node_inv _ _ _ _ _ _ _ _ Hrep Hper) as (p & q & -> & -> & _ & Hdn & _ & Hdi & _).
    destruct (rep_child asc _ _ _ _ _ _ _ _ Hrep) as [RT RF].
    destruct (persisted_child asc _ _ _ _ _ _ _ Hper) as (_ & _ & _ & _ & PT & PF).
    destruct fuel as [|k]; [cbn [height] in Hh; lia|]. destruct (height_child asc _ _ _ _ _ _ _ _ Hh) as [HT HF].
    cbn [root_loc visit_reads]. rewrite Hdn. cbn [nr_item nr_left nr_right].
    rewrite Hdi, !if_root_loc, visit_treads_T. apply vnode_ext; intro b'; [apply IHT|apply IHF]; assumption.
Qed.

(* a read is key-only, or -- only when values are asked for -- the value of a located item *)
Definition vk (wv : bool) (t : tree) (x : rd) : Prop := key_only t x \/ (wv = true /\ in_value t x).

Lemma vk_false t x : vk false t x -> key_only t x.
Proof. intros [H|[H _]]; [exact H|discriminate]. Qed.

Lemma vk_any b t x : vk b t x -> in_node t x \/ in_keypart t x \/ in_value t x.
Proof. intros [[H|H]|[_ H]]; auto. Qed.

Lemma vk_child wv (b : bool) nl l il it nn nb r x :
  vk wv (if b then l else r) x -> vk wv (T nl l il it nn nb r) x.
Proof.
  destruct (reads_incl (if b then l else r) (T nl l il it nn nb r) x (locs_child b _ _ _ _ _ _ _)) as [HK HV].
  intros [H|[Hw H]]; [left|right]; auto.
Qed.

Lemma vk_key_only wv t l : Forall (key_only t) l -> Forall (vk wv t) l.
Proof. intro H. eapply Forall_impl; [|exact H]. intros x Hx. left. exact Hx. Qed.

Lemma vk_item_value b t q it : In (q, it) (item_locs t) -> b = true -> Forall (vk b t) (item_reads q it true).
Proof.
  intros Hin Hb. rewrite item_reads_true_false.
  apply Forall_app_intro; [apply vk_key_only, key_only_item_in, Hin|].
  apply Forall_cons; [|apply Forall_nil]. right. split; [exact Hb|].
  exists q, it. split; [exact Hin|reflexivity].
Qed.

Lemma visit_treads_vk cmp asc target wv : forall t b,
  Forall (vk wv t) (fst (fst (visit_treads cmp asc t target wv b))).
Proof.
  induction t as [|nl l il it nn nb r IHT IHF] using (tree_dir_ind asc); intro b; [constructor|].
  destruct nl as [p|]; [|constructor]. destruct il as [q|]; [|constructor].
  rewrite visit_treads_T. apply vnode_Forall.
  - apply vk_key_only, Forall_app_intro; [apply key_only_node_in, node_locs_here|apply key_only_item_in, item_locs_here].
  - destruct wv; [apply vk_item_value; [apply item_locs_here|reflexivity]|constructor].
  - intro b'. eapply Forall_impl; [apply (vk_child wv asc)|apply IHT].
  - intro b'. eapply Forall_impl; [apply (vk_child wv (negb asc))|destruct asc; apply IHF].
Qed.

Theorem visit_reads_keyonly cmp asc f t l target b fuel :
  rep f t -> persisted t -> root_loc t = l -> (height t <= fuel)%nat ->
  Forall (fun r => in_node t r \/ in_keypart t r)
         (fst (fst (visit_reads fuel cmp asc f l target false b))).
Proof.
  intros Hrep Hper <- Hh. rewrite (visit_reads_tree cmp asc f target false t fuel b) by auto.
  eapply Forall_impl; [exact (vk_false t)|apply visit_treads_vk].
Qed.

Theorem visit_reads_true_all cmp asc f t l target b fuel :
  rep f t -> persisted t -> root_loc t = l -> (height t <= fuel)%nat ->
  Forall (fun r => in_node t r \/ in_keypart t r \/ in_value t r)
         (fst (fst (visit_reads fuel cmp asc f l target true b))).
Proof.
  intros Hrep Hper <- Hh. rewrite (visit_reads_tree cmp asc f target true t fuel b) by auto.
  eapply Forall_impl; [exact (vk_any true t)|apply visit_treads_vk].
Qed.

Theorem visit_never_reads_values cmp asc f t l target b fuel :
  rep f t -> persisted t -> root_loc t = l -> (height t <= fuel)%nat -> records_disjoint t ->
  forall r, In r (fst (fst (visit_reads fuel cmp asc f l target false b))) ->
  forall q it, In (q, it) (item_locs t) -> rd_disjoint r (value_range q it).
Proof.
  intros Hrep Hper Hl Hh Hd r Hr. apply (key_only_never_value f t r Hrep Hd).
  exact (proj1 (Forall_forall _ _) (visit_reads_keyonly cmp asc f t l target b fuel Hrep Hper Hl Hh) r Hr).
Qed.

(* on a persisted tree the budget and keepGoing results are those of Treap.visit (at any depth and whether or
   not values are read), and every delivery costs exactly one re-read of the item: three ReadAt calls (header,
   key, value) when values are asked for, none otherwise *)
Lemma visit_treads_visit cmp asc target : forall t, persisted t -> forall d b,
  let '(R1, b1, k1) := visit_treads cmp asc t target true b in
  let '(R0, b0, k0) := visit_treads cmp asc t target false b in
  let '(D, b2, k2) := visit cmp asc t target d b in
  b1 = b2 /\ k1 = k2 /\ b0 = b2 /\ k0 = k2 /\ length R1 = (length R0 + 3 * length D)%nat.
Proof.
  induction t as [|nl l il it nn nb r IHT IHF] using (tree_dir_ind asc); intros Hper d b; [repeat split|].
  destruct (persisted_child asc _ _ _ _ _ _ _ Hper) as (p & q & -> & -> & PT & PF).
  cbn [visit visit_treads]. fold (vchoice cmp asc target it). destruct (vchoice cmp asc target it).
  - specialize (IHT PT (d + 1) b).
    destruct (visit_treads cmp asc (if asc then l else r) target true b) as [[r1 b1] k1].
    destruct (visit_treads cmp asc (if asc then l else r) target false b) as [[r1' b1'] k1'].
    destruct (visit cmp asc (if asc then l else r) target (d + 1) b) as [[d1 b1''] k1''].
    destruct IHT as (-> & -> & -> & -> & L1). destruct k1''.
    + destruct b1'' as [|b'].
      * repeat split. rewrite !app_length, L1. cbn [item_reads app length]. lia.
      * specialize (IHF PF (d + 1) b').
        destruct (visit_treads cmp asc (if asc then r else l) target true b') as [[r2 b2] k2].
        destruct (visit_treads cmp asc (if asc then r else l) target false b') as [[r2' b2'] k2'].
        destruct (visit cmp asc (if asc then r else l) target (d + 1) b') as [[d2 b2''] k2''].
        destruct IHF as (-> & -> & -> & -> & L2). repeat split.
        rewrite !app_length, L1, L2. cbn [item_reads app length]. lia.
    + repeat split. rewrite !app_length, L1. lia.
  - specialize (IHF PF (d + 1) b).
    destruct (visit_treads cmp asc (if asc then r else l) target true b) as [[r2 b2] k2].
    destruct (visit_treads cmp asc (if asc then r else l) target false b) as [[r2' b2'] k2'].
    destruct (visit cmp asc (if asc then r else l) target (d + 1) b) as [[d2 b2''] k2''].
    destruct IHF as (-> & -> & -> & -> & L2). repeat split. rewrite !app_length, L2. lia.
Qed.

Theorem visit_reads_agree_with_visit cmp asc f t l target wv b fuel d :
  rep f t -> persisted t -> root_loc t = l -> (height t <= fuel)%nat ->
  let '(_, b', k') := visit_reads fuel cmp asc f l target wv b in
  let '(_, b'', k'') := visit cmp asc t target d b in
  b' = b'' /\ k' = k''.
Proof.
  intros Hrep Hper <- Hh. rewrite (visit_reads_tree cmp asc f target wv t fuel b) by auto.
  pose proof (visit_treads_visit cmp asc target t Hper d b) as H. destruct wv.
  all: destruct (visit_treads cmp asc t target true b) as [[r1 b1] k1];
    destruct (visit_treads cmp asc t target false b) as [[r0 b0] k0];
    destruct (visit cmp asc t target d b) as [[d2 b2] k2]; tauto.
Qed.

(* with withValue = true the visit issues as many reads as the key-only visit plus three (header, key, value:
   one itemLoc.read with the value) per delivery *)
Theorem visit_value_reads_count cmp asc f t l target b fuel d :
  rep f t -> persisted t -> root_loc t = l -> (height t <= fuel)%nat ->
  length (fst (fst (visit_reads fuel cmp asc f l target true b))) =
  (length (fst (fst (visit_reads fuel cmp asc f l target false b))) +
   3 * length (fst (fst (visit cmp asc t target d b))))%nat.
Proof.
  intros Hrep Hper <- Hh. rewrite !(visit_reads_tree cmp asc f target _ t fuel b) by auto.
  pose proof (visit_treads_visit cmp asc target t Hper d b) as H.
  destruct (visit_treads cmp asc t target true b) as [[r1 b1] k1].
  destruct (visit_treads cmp asc t target false b) as [[r0 b0] k0].
  destruct (visit cmp asc t target d b) as [[d2 b2] k2].
  apply H.
Qed.
