(* Whole histories in which Flush calls fail at a WriteAt call and are retried (DFaultRun.dfrun):
   the failed attempts are invisible.  The retried Flush leaves the byte-level store in exactly the
   state of a Flush that never failed (failed_attempts_then_flush), so a history with failed and
   retried Flush calls answers on every completed call, and leaves the same files, as the history
   without the failed attempts (dfrun_retry_invisible); with DStoreRefine's history theorem this is
   the abstract store (dfrun_refines_store).  The failed attempts themselves all return an error
   (failed_attempts_err). *)
From GK Require Import Base Treap Store StoreSpec StoreRefine Codec CodecProofs Disk DiskProofs DStore DStoreRefine DiskFault DiskFaultProofs DFaultRun.
From GK Require DiskCor.
From Coq Require Import Lia ZArith NArith List Bool.
Import ListNotations.
Open Scope Z_scope.

(* the retry discipline: a failed Flush is followed by further failed attempts and then the Flush again *)
Fixpoint retried (ops : list fop) : Prop :=
  match ops with
  | [] => True
  | FOp _ :: r => retried r
  | FFlushFail _ _ :: r =>
    match r with
    | FFlushFail _ _ :: _ => retried r
    | FOp OFlush :: _ => retried r
    | _ => False
    end
  end.

(* every planned fault really fires (its call number lies inside the Flush it is planned for) *)
Fixpoint faults_fire (s : dstore) (ops : list fop) : Prop :=
  match ops with
  | [] => True
  | o :: r =>
    (match o with FFlushFail k _ => (k < flush_calls (d_cur s))%nat | FOp _ => True end) /\
    faults_fire (fst (dfstep s o)) r
  end.

(* size stays inside the file *)
Definition dsz (s : dstore) : Prop := 0 <= d_size s <= blen (d_file s).

(* the answers and files of the calls that are not failed attempts *)
Fixpoint completed (ops : list fop) (res : list (out * file)) : list (out * file) :=
  match ops, res with
  | FOp _ :: ops', x :: res' => x :: completed ops' res'
  | FFlushFail _ _ :: ops', _ :: res' => completed ops' res'
  | _, _ => []
  end.

Lemma decode_store_bounds f e cs : decode_store f = OpOk e cs -> roots_len < e <= blen f.
Proof.
  intros H. destruct (decode_store_inv _ _ _ H) as (Hr & _).
  split; [eapply root_at_Some_gt|eapply root_at_le_blen]; eassumption.
Qed.

Lemma dstep_dsz s o : dsz s -> dsz (fst (dstep s o)).
Proof.
  intros H. unfold dsz in *. destruct (is_disk o) eqn:Hd.
  - destruct o; try discriminate Hd; cbn [dstep].
    + destruct (flush_bytes (d_file s) (d_size s) (d_cur s)) as [[f' size'] cs'] eqn:E.
      destruct (flush_bytes_appends _ _ _ _ _ _ H E). cbn [fst d_size d_file]. lia.
    + destruct (decode_store (d_file s)) as [| | |e cs] eqn:E; cbn [fst d_size d_file]; try exact H.
      * pose proof (blen_nonneg (d_file s)). lia.
      * apply decode_store_bounds in E. change roots_len with 44 in E. lia.
    + destruct (revert_bytes (d_file s) (d_size s)) as [[f' e] m] eqn:E.
      destruct (load_all f' m e); cbn [fst d_size d_file]; [|exact H].
      destruct (DiskCor.revert_truncates_to_root _ _ _ _ _ E) as [(-> & -> & _)|(Hr & -> & _)].
      * rewrite blen_nil. lia.
      * destruct (revert_reopens _ _ _ Hr) as [-> _]. apply root_at_Some_gt in Hr.
        change roots_len with 44 in Hr. lia.
  - rewrite (dstep_nondisk _ _ Hd). destruct (step _ o). exact H.
Qed.

Lemma dfstep_dsz s o : dsz s -> dsz (fst (dfstep s o)).
Proof.
  intros H. destruct o as [o|k torn]; [apply dstep_dsz; exact H|].
  unfold dfstep.
  destruct (flush_fault k torn (d_file s) (d_size s) (d_cur s)) as [[[f' size'] cs'] b] eqn:E.
  cbn [fst]. unfold dsz. cbn [d_size d_file].
  destruct (flush_fault_durable _ _ _ _ _ _ _ _ _ H E) as (_ & D). unfold dsz in H. lia.
Qed.

Print Assumptions dstep_dsz.
Print Assumptions dfstep_dsz.

(* one failed attempt whose fault fires *)
Lemma dfstep_fail s k torn : (k < flush_calls (d_cur s))%nat ->
  exists f1 s1 cs1, flush_fault k torn (d_file s) (d_size s) (d_cur s) = (f1, s1, cs1, true) /\
    dfstep s (FFlushFail k torn) = (mkDStore f1 s1 cs1 (d_cmpreg s), RErr).
Proof.
  intros Hk. unfold dfstep.
  destruct (flush_fault k torn (d_file s) (d_size s) (d_cur s)) as [[[f1 s1] cs1] b] eqn:E.
  rewrite (flush_fault_fails _ _ _ _ _ _ _ _ _ Hk E) in *. eauto.
Qed.

Lemma dfstep_fail_flush s k torn :
  dsz s -> (k < flush_calls (d_cur s))%nat ->
  dstep (fst (dfstep s (FFlushFail k torn))) OFlush = dstep s OFlush.
Proof.
  intros Hs Hk. destruct (dfstep_fail s k torn Hk) as (f1 & s1 & cs1 & E & ->).
  cbn [fst dstep d_file d_size d_cur d_cmpreg]. rewrite (flush_retry_same _ _ _ _ _ _ _ _ Hs E). reflexivity.
Qed.

Theorem failed_attempts_then_flush : forall attempts s,
  dsz s ->
  Forall (fun o => exists k torn, o = FFlushFail k torn) attempts ->
  faults_fire s attempts ->
  let s1 := fold_left (fun st o => fst (dfstep st o)) attempts s in
  dstep s1 OFlush = dstep s OFlush.
Proof.
  induction attempts as [|a attempts IH]; intros s Hs Hall Hf; [reflexivity|].
  cbn [fold_left].
  inversion Hall as [|? ? (k & torn & Ha) Hall']; subst.
  cbn [faults_fire] in Hf. destruct Hf as (Hk & Hf).
  pose proof (IH _ (dfstep_dsz s _ Hs) Hall' Hf) as IH'. cbv zeta in IH'.
  rewrite IH'. apply dfstep_fail_flush; assumption.
Qed.
Print Assumptions failed_attempts_then_flush.

(* what may follow a failed attempt *)
Definition pending (ops : list fop) : Prop :=
  match ops with
  | FFlushFail _ _ :: _ => True
  | FOp OFlush :: _ => True
  | _ => False
  end.

Lemma retried_fail_inv k torn r : retried (FFlushFail k torn :: r) -> retried r /\ pending r.
Proof.
  destruct r as [|[o|k' t'] r'].
  - intros H. exact (False_ind _ H).
  - destruct o; intros H; try exact (False_ind _ H). split; [exact H|exact I].
  - intros H. split; [exact H|exact I].
Qed.

(* the faulted run is in state s' (after some failed attempts), the stripped run in state s *)
Lemma dfrun_retry_gen : forall ops s' s,
  dsz s' -> retried ops -> faults_fire s' ops ->
  (s' = s \/ (dstep s' OFlush = dstep s OFlush /\ pending ops)) ->
  completed ops (dfrun s' ops) = combine (drun s (strip ops)) (dfiles s (strip ops)).
Proof.
  induction ops as [|o ops IH]; intros s' s Hs Hr Hf Hrel; [reflexivity|].
  cbn [faults_fire] in Hf. destruct Hf as (Hk & Hf).
  destruct o as [o|k torn].
  - (* a completed call *)
    assert (Hstep : dstep s' o = dstep s o).
    { destruct Hrel as [->|(He & Hp)]; [reflexivity|].
      cbn [pending] in Hp. destruct o; try contradiction. exact He. }
    cbn [retried] in Hr.
    pose proof (dfstep_dsz s' (FOp o) Hs) as Hs1.
    cbn [dfrun strip drun dfiles]. cbn [dfstep] in Hf, Hs1 |- *.
    rewrite Hstep in Hf, Hs1 |- *.
    destruct (dstep s o) as [s1 r1]. cbn [fst] in Hf, Hs1.
    cbn [completed combine]. f_equal.
    apply IH; auto.
  - (* a failed attempt *)
    destruct (retried_fail_inv _ _ _ Hr) as (Hr' & Hp).
    pose proof (dfstep_dsz s' (FFlushFail k torn) Hs) as Hs1.
    pose proof (dfstep_fail_flush s' k torn Hs Hk) as He.
    cbn [dfrun strip].
    destruct (dfstep s' (FFlushFail k torn)) as [s1 r1]. cbn [fst] in Hf, Hs1, He.
    cbn [completed].
    apply IH; auto. right. split; [|exact Hp].
    rewrite He. destruct Hrel as [->|(He' & _)]; [reflexivity|exact He'].
Qed.

Theorem dfrun_retry_invisible : forall ops s,
  dsz s -> retried ops -> faults_fire s ops ->
  completed ops (dfrun s ops) = combine (drun s (strip ops)) (dfiles s (strip ops)).
Proof. intros ops s Hs Hr Hf. apply dfrun_retry_gen; auto. Qed.
Print Assumptions dfrun_retry_invisible.

Theorem failed_attempts_err : forall ops s i k torn,
  faults_fire s ops -> nth_error ops i = Some (FFlushFail k torn) ->
  exists f, nth_error (dfrun s ops) i = Some (RErr, f).
Proof.
  induction ops as [|o ops IH]; intros s i k torn Hf Hn.
  - destruct i; discriminate.
  - cbn [faults_fire] in Hf. destruct Hf as (Hk & Hf).
    destruct i as [|i]; cbn [nth_error] in Hn.
    + injection Hn as ->. cbn [dfrun]. destruct (dfstep_fail s k torn Hk) as (f1 & s1 & cs1 & _ & ->).
      eexists. reflexivity.
    + cbn [dfrun]. destruct (dfstep s o) as [s1 r1]. cbn [fst] in Hf.
      cbn [nth_error]. eapply IH; eauto.
Qed.
Print Assumptions failed_attempts_err.

(* all answers of a faulted run: those of the completed calls, with an error at every failed attempt *)
Fixpoint with_errs (ops : list fop) (outs : list out) : list out :=
  match ops, outs with
  | FOp _ :: ops', x :: outs' => x :: with_errs ops' outs'
  | FFlushFail _ _ :: ops', _ => RErr :: with_errs ops' outs
  | _, _ => []
  end.

Lemma dfrun_outs : forall ops s, faults_fire s ops ->
  map fst (dfrun s ops) = with_errs ops (map fst (completed ops (dfrun s ops))).
Proof.
  induction ops as [|o ops IH]; intros s Hf; [reflexivity|].
  cbn [faults_fire] in Hf. destruct Hf as (Hk & Hf). cbn [dfrun].
  destruct o as [o|k torn].
  - destruct (dfstep s (FOp o)) as [s1 r1]. cbn [completed map fst with_errs]. f_equal. apply IH, Hf.
  - destruct (dfstep_fail s k torn Hk) as (f1 & s1 & cs1 & _ & E). rewrite E in Hf |- *.
    cbn [completed map fst with_errs]. f_equal. apply IH, Hf.
Qed.

Lemma combine_run : forall ops s,
  map fst (combine (drun s ops) (dfiles s ops)) = drun s ops /\
  map snd (combine (drun s ops) (dfiles s ops)) = dfiles s ops.
Proof.
  induction ops as [|o ops IH]; intros s; [split; reflexivity|].
  cbn [drun dfiles]. destruct (dstep s o) as [s1 r1]. cbn [combine map fst snd].
  destruct (IH s1) as [-> ->]. split; reflexivity.
Qed.

Lemma dsz_dinit : dsz dinit.
Proof. unfold dsz. cbn [dinit d_size d_file]. rewrite blen_nil. lia. Qed.

Theorem dfrun_refines_store : forall ops,
  retried ops -> faults_fire dinit ops ->
  ops_ok [] (strip ops) -> history_ok (strip ops) ->
  map fst (completed ops (dfrun dinit ops)) = run (init true) (strip ops).
Proof.
  intros ops Hr Hf Hops Hh.
  rewrite (dfrun_retry_invisible ops dinit dsz_dinit Hr Hf), (proj1 (combine_run _ _)).
  apply dstore_refines_store_exact; assumption.
Qed.
Print Assumptions dfrun_refines_store.

(* non-vacuity: DStoreRefine.ex_history with two failed attempts before the first Flush (the first
   call fails after 3 bytes; then the second call, the value of the first item, fails at once) and one
   failed attempt before the second Flush *)
Definition ex_fhistory : list fop :=
  [ FOp (OColl [97]%N 0); FOp (OColl [98]%N 1);
    FOp (OSet [97]%N [107; 49]%N (Some [118; 49]%N) 5);
    FOp (OSet [98]%N [107; 50]%N (Some [118; 50; 0; 255]%N) 7);
    FFlushFail 0 3; FFlushFail 1 0;
    FOp OFlush;
    FOp (OSet [97]%N [107; 51]%N (Some [118; 51]%N) 3);
    FOp (ODel [98]%N [107; 50]%N);
    FFlushFail 0 3;
    FOp OFlush;
    FOp OReopen;
    FOp (OGet [97]%N [107; 51]%N); FOp (OGet [98]%N [107; 50]%N);
    FOp ORevert;
    FOp (OGet [97]%N [107; 51]%N); FOp (OGet [98]%N [107; 50]%N); FOp (OGet [97]%N [107; 49]%N);
    FOp ORevert;
    FOp ONames ].

Lemma ex_fhistory_fires : faults_fire dinit ex_fhistory.
Proof. vm_compute. repeat split; lia. Qed.

Example ex_retried : exists ops, retried ops /\ faults_fire dinit ops /\ (2 <= length (filter (fun o => match o with FFlushFail _ _ => true | _ => false end) ops))%nat
   /\ ops_ok [] (strip ops) /\ history_ok (strip ops).
Proof.
  exists ex_fhistory.
  split; [exact I|]. split; [exact ex_fhistory_fires|].
  split; [vm_compute; lia|]. exact ex_history_ok.
Qed.
Print Assumptions ex_retried.

(* what the example does: the three failed attempts answer RErr, the completed calls answer like
   ex_history, and the files after the two retried Flush calls are those of the unfailed run *)
Example ex_fhistory_run :
  map fst (dfrun dinit ex_fhistory) =
  [ ROk; ROk; ROk; ROk; RErr; RErr; ROk; ROk; RBool true; RErr; ROk; ROk;
    RVal (Some [118; 51]%N); RVal None;
    ROk;
    RVal None; RVal (Some [118; 50; 0; 255]%N); RVal (Some [118; 49]%N);
    ROk;
    RNames [] ] /\
  map fst (completed ex_fhistory (dfrun dinit ex_fhistory)) = drun dinit ex_history /\
  map snd (completed ex_fhistory (dfrun dinit ex_fhistory)) = dfiles dinit ex_history.
Proof.
  (* through dfrun_outs and dfrun_refines_store: at the byte level nothing is run, only the abstract store is *)
  split.
  - rewrite (dfrun_outs _ _ ex_fhistory_fires),
      (dfrun_refines_store ex_fhistory I ex_fhistory_fires (proj1 ex_history_ok) (proj2 ex_history_ok)).
    vm_compute. reflexivity.
  - rewrite (dfrun_retry_invisible ex_fhistory dinit dsz_dinit I ex_fhistory_fires).
    exact (combine_run ex_history dinit).
Qed.
Print Assumptions ex_fhistory_run.
