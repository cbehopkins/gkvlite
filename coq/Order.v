(* Order.v — the four comparators of Base.v satisfy cmp_laws. *)
From GK Require Import Base.

Lemma cmp_bytes_refl : forall a, cmp_bytes a a = Eq.
Proof.
  induction a as [|x xs IH]; cbn; [reflexivity|].
  rewrite N.compare_refl. exact IH.
Qed.

Lemma cmp_bytes_opp : forall a b, cmp_bytes b a = CompOpp (cmp_bytes a b).
Proof.
  induction a as [|x xs IH]; destruct b as [|y ys]; cbn; try reflexivity.
  rewrite (N.compare_antisym x y).
  destruct (x ?= y)%N; cbn; auto.
Qed.

Lemma cmp_bytes_eq : forall a b, cmp_bytes a b = Eq -> a = b.
Proof.
  induction a as [|x xs IH]; destruct b as [|y ys]; cbn; try discriminate; auto.
  destruct (x ?= y)%N eqn:E; try discriminate.
  intro H. apply N.compare_eq_iff in E. subst y. f_equal. auto.
Qed.

Lemma cmp_bytes_lt_trans : forall a b c,
  cmp_bytes a b = Lt -> cmp_bytes b c = Lt -> cmp_bytes a c = Lt.
Proof.
  induction a as [|x xs IH]; intros [|y ys] [|z zs]; cbn; try discriminate; auto.
  intros H1 H2.
  destruct (N.compare_spec x y) as [E1|E1|E1]; try discriminate;
  destruct (N.compare_spec y z) as [E2|E2|E2]; try discriminate.
  1: subst; rewrite N.compare_refl; eauto.
  all: assert ((x ?= z)%N = Lt) as -> by (apply N.compare_lt_iff; lia); reflexivity.
Qed.

Theorem cmp_bytes_laws : cmp_laws cmp_bytes.
Proof.
  constructor.
  - exact cmp_bytes_refl.
  - exact cmp_bytes_opp.
  - exact cmp_bytes_lt_trans.
  - intros a b c H. apply cmp_bytes_eq in H. subst. reflexivity.
Qed.

(* the laws are kept by reversing a comparator and by comparing images *)
Lemma cmp_laws_flip : forall c, cmp_laws c -> cmp_laws (fun a b => c b a).
Proof.
  intros c [R O T E]. constructor.
  - exact R.
  - intros a b. apply O.
  - intros a b d H1 H2. exact (T _ _ _ H2 H1).
  - intros a b d H. rewrite (O a d), (O b d). f_equal. apply E. rewrite O, H. reflexivity.
Qed.

Lemma cmp_laws_map : forall (f : bytes -> bytes) c, cmp_laws c -> cmp_laws (fun a b => c (f a) (f b)).
Proof. intros f c [R O T E]. constructor; intros; eauto. Qed.

Theorem cmp_rev_laws : cmp_laws cmp_rev.
Proof. exact (cmp_laws_flip _ cmp_bytes_laws). Qed.

Theorem cmp_len_laws : cmp_laws cmp_len.
Proof.
  constructor.
  - intro a. unfold cmp_len. rewrite Nat.compare_refl. apply cmp_bytes_refl.
  - intros a b. unfold cmp_len.
    rewrite (Nat.compare_antisym (length a) (length b)).
    destruct (Nat.compare (length a) (length b)); cbn; auto using cmp_bytes_opp.
  - intros a b c. unfold cmp_len.
    destruct (Nat.compare_spec (length a) (length b)) as [E1|E1|E1]; try discriminate;
    destruct (Nat.compare_spec (length b) (length c)) as [E2|E2|E2]; try discriminate;
    intros H1 H2;
    destruct (Nat.compare_spec (length a) (length c)) as [E3|E3|E3];
    try lia; try reflexivity.
    eapply cmp_bytes_lt_trans; eauto.
  - intros a b c. unfold cmp_len.
    destruct (Nat.compare (length a) (length b)); try discriminate.
    intro H. apply cmp_bytes_eq in H. subst. reflexivity.
Qed.

Theorem cmp_fold_laws : cmp_laws cmp_fold.
Proof. exact (cmp_laws_map (map lower) _ cmp_bytes_laws). Qed.

Theorem cmp_of_laws : forall id, cmp_laws (cmp_of id).
Proof.
  intros [|[|[|[|n]]]]; cbn [cmp_of].
  - exact cmp_bytes_laws.
  - exact cmp_rev_laws.
  - exact cmp_len_laws.
  - exact cmp_fold_laws.
  - exact cmp_bytes_laws.
Qed.
