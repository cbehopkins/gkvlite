(* No use of an Item after its release.  An application may recycle an Item's buffers the moment its count reaches
   zero (ItemDecRef); the visit releases an item when it leaves the node.  Fixed here, from the function bodies:
   what the visits keep across deliveries is a COPY of a key, never the item or its key slice, and visitNodes
   holds a reference of its own from before the visitor is called until after the last use of the item's key. *)
From GK Require Import Base Treap Codec Blocks GExpr Generated DecBase GExprFacts.
From Coq Require Import ZArith NArith List String Bool Lia.
Import ListNotations.
Open Scope string_scope.
Open Scope list_scope.
Open Scope Z_scope.

(* the out-of-order guard of ascending visits compares with a copy of the previous key *)
Theorem visit_guard_keeps_a_copy :
  body "<lit:Collection.VisitItemsAscendEx#1>" =
    [SIf [] (GBin "&&" (GVar "havePrevVisitKey")
                (GBin ">" (GCall "t.compare" [GVar "prevVisitKey"; GVar "i.Key"]) (GInt 0)))
       [SAssign [GVar "errCheckedVisitor"] "="
          [GCall "fmt.Errorf"
             [GBin "+" (GLit """corrupted / out-of-order index""")
                (GLit """, key: %s vs %s, coll: %p, collName: %s, store: %p, storeFile: %v""");
              GCall "string" [GVar "prevVisitKey"]; GCall "string" [GVar "i.Key"]; GVar "t";
              GVar "t.name"; GVar "t.store"; GVar "t.store.file"]];
        SReturn [GVar "false"]] [];
     SAssign [GVar "prevVisitKey"] "="
       [GCall "append" [GCall "[:]" [GVar "prevVisitKey"; GNil; GInt 0]; GVar "i.Key"]];
     SAssign [GVar "havePrevVisitKey"] "=" [GVar "true"];
     SReturn [GCall "visitor" [GVar "i"; GVar "depth"]]].
Proof. vm_compute. reflexivity. Qed.

(* the block start keys of both whole-collection enumerations are copies *)
Definition copy_of (e : string) : gexpr := GCall "append" [GCall "[]byte" [GNil]; GVar e].

Theorem block_keys_are_copies :
  hd (SReturn []) (body "<lit:Collection.VisitItemsAscendBlockEx#1>") =
    SIf [] (GBin "==" (GVar "j") (GInt 0))
      [SAssign [GVar "blockStore"] "=" [GCall "append" [GVar "blockStore"; copy_of "i.Key"]];
       SAssign [GVar "j"] "=" [GInt 1]]
      [SIf [] (GBin ">=" (GVar "j") (GVar "lenBlock")) [SAssign [GVar "j"] "=" [GInt 0]] [SIncDec (GVar "j") true]] /\
  body "<lit:Collection.VisitItemsRandom#1>" = body "<lit:Collection.VisitItemsAscendBlockEx#1>" /\
  In (SAssign [GCall "[]" [GVar "blockStore"; GVar "i"]] "=" [copy_of "itm.Key"])
     (body "<lit:Collection.VisitItemsRandom#2>").
Proof.
  repeat apply conj; try (vm_compute; reflexivity).
  find_in (assigns (fun l => match l with GCall "[]" _ => true | _ => false end)).
Qed.

(* visitNodes: own reference from before the visitor call until after the comparison that uses the item's key;
   released on both ways out *)
Theorem visit_holds_item_while_used :
  call_list "Store.visitNodes" =
    ["n.read"; "n.isEmpty";
     "func(evictNode *node) {  if i := evictNode.Evict(); i != nil {   o.ItemDecRef(t, i)  } }";
     "nItemLoc.read"; "panic"; "fmt.Sprintf"; "choiceFunc"; "t.compare";
     "o.visitNodes"; "n.read"; "nItemLoc.read"; "o.ItemAddRef"; "visitor";
     "o.ItemDecRef"; "n.read"; "choiceFunc"; "t.compare"; "o.ItemDecRef";
     "o.visitNodes"] /\
  count_occ string_dec (call_list "Store.visitNodes") "o.ItemAddRef" = 1%nat.
Proof. split; vm_compute; reflexivity. Qed.
