(* treap.go and collection.go against Treap.v.  union and join make `this` the root iff this.Priority > that.Priority
   (strict); split and GetItem branch on the three-way comparison as Treap.split and Treap.lookup match on it; SetItem's
   validation is Treap.valid_item (a nil key and an empty key are both rejected, so the model's single empty list stands
   for both: keynil says which one the environment describes); every node union / split / join build carries
   left + right + 1 nodes and left + right + the bytes of the item it is built with, the children's aggregates being read
   from exactly the two children it is built with (Treap.mk); the node SetItem builds is Treap.single. *)
From GK Require Import Base Treap Codec Blocks GExpr Generated DecBase GExprFacts.
From Coq Require Import ZArith NArith List String Bool Lia.
Import ListNotations.
Open Scope string_scope.
Open Scope list_scope.
Open Scope Z_scope.

Theorem union_priority_decision :
  exists c, decisions "Store.union" "thisItem.Priority" = [c] /\
            forall x y, gtrue (prio_env x y) c = Some (x >? y).
Proof. eexists. split; [vm_compute; reflexivity|]. intros x y. apply gtrue_b2z. reflexivity. Qed.

Theorem join_priority_decision :
  exists c, decisions "Store.join" "thisItem.Priority" = [c] /\
            forall x y, gtrue (prio_env x y) c = Some (x >? y).
Proof. eexists. split; [vm_compute; reflexivity|]. intros x y. apply gtrue_b2z. reflexivity. Qed.

Theorem split_compare_decisions :
  exists c1 c2, decisions "Store.split" "c" = [c1; c2] /\
    forall o : comparison,
      gtrue (c_env (cmpz o)) c1 = Some (match o with Eq => true | _ => false end) /\
      gtrue (c_env (cmpz o)) c2 = Some (match o with Lt => true | _ => false end).
Proof. do 2 eexists. split; [vm_compute; reflexivity|]. intros [ | | ]; split; reflexivity. Qed.

Theorem getitem_compare_decisions :
  exists c1 c2, decisions "Collection.GetItem" "c" = [c1; c2] /\
    forall o : comparison,
      gtrue (c_env (cmpz o)) c1 = Some (match o with Lt => true | _ => false end) /\
      gtrue (c_env (cmpz o)) c2 = Some (match o with Gt => true | _ => false end).
Proof. do 2 eexists. split; [vm_compute; reflexivity|]. intros [ | | ]; split; reflexivity. Qed.

Lemma valid_item_spec key val prio :
  valid_item key val prio =
  negb (Z.of_nat (List.length key) =? 0) && (match val with Some _ => true | None => false end) &&
  (Z.of_nat (List.length key) <=? 65535) && (0 <=? prio).
Proof.
  destruct key as [|k ks]; [destruct val; reflexivity|].
  assert (E : (Z.of_nat (List.length (k :: ks)) =? 0) = false) by (apply Z.eqb_neq; cbn [List.length]; lia).
  rewrite E. unfold valid_item. destruct val; cbn [negb andb]; reflexivity.
Qed.

Theorem setitem_validation_decisions :
  exists c1 c2,
    decisions "Collection.SetItem" "item.Key" = [c1] /\ decisions "Collection.SetItem" "item.Priority" = [c2] /\
    forall keynil key val prio, (keynil = true -> key = []) ->
      exists b1 b2, gtrue (item_env keynil key val prio) c1 = Some b1 /\
                    gtrue (item_env keynil key val prio) c2 = Some b2 /\
                    valid_item key val prio = negb b1 && negb b2.
Proof.
  do 2 eexists. split; [vm_compute; reflexivity|]. split; [vm_compute; reflexivity|].
  intros keynil key val prio Hnil. rewrite valid_item_spec. unfold item_env.
  assert (Hn0 : keynil = true -> (Z.of_nat (List.length key) =? 0) = true) by (intros ->%Hnil; reflexivity).
  generalize dependent (Z.of_nat (List.length key)). intros n Hn0. clear Hnil.
  (* the model's <=? as the negated <? of the source: then both sides branch on the same five booleans *)
  rewrite (Z.leb_antisym 65535 n), (Z.leb_antisym prio 0). gsimpl. rewrite (Z.gtb_ltb n).
  destruct keynil; [rewrite (Hn0 eq_refl)|destruct (n =? 0)];
    destruct (65535 <? n), val, (prio <? 0); do 2 eexists; repeat split.
Qed.

Theorem node_aggregates_are_mk :
  aggs_ok None (agg_calls "Store.union") = true /\ aggs_ok None (agg_calls "Store.split") = true /\
  aggs_ok None (agg_calls "Store.join") = true /\
  List.length (filter (fun c => String.eqb (fst c) "t.mkNode") (agg_calls "Store.union")) = 3%nat /\
  List.length (filter (fun c => String.eqb (fst c) "t.mkNode") (agg_calls "Store.split")) = 2%nat /\
  List.length (filter (fun c => String.eqb (fst c) "t.mkNode") (agg_calls "Store.join")) = 2%nat /\
  (forall ln rn lb rb ib : Z,
     let rho := upd (upd (upd (upd (upd env0 "leftNum" ln) "rightNum" rn) "leftBytes" lb) "rightBytes" rb) "x.NumBytes(t)" ib in
     geval rho (GBin "+" (GBin "+" (GVar "leftNum") (GVar "rightNum")) (GInt 1)) = Some (ln + rn + 1) /\
     geval rho (GBin "+" (GBin "+" (GVar "leftBytes") (GVar "rightBytes")) (GCall "uint64" [GCall "x.NumBytes" [GVar "t"]])) = Some (lb + rb + ib)).
Proof.
  repeat apply conj; try (vm_compute; reflexivity). intros; split; reflexivity.
Qed.

Theorem new_node_is_single :
  agg_calls "Collection.SetItem" =
  [("t.mkNode", [GNil; GNil; GNil; GInt 1;
                 GBin "+" (GCall "uint64" [GCall "len" [GVar "item.Key"]]) (GCall "uint64" [GCall "item.NumValBytes" [GVar "t"]])])].
Proof. vm_compute. reflexivity. Qed.

