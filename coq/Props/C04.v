(* C04 — snapshots are isolated, read-only and harmless to the original.
   A snapshot is a handle holding a reference on a version (Proto.s_snapshot). *)
From stdpp Require Import gmap.
From GK Require Import Base Treap Store StoreSpec StoreRefine MStore Proto ProtoProofs.

(* while a snapshot handle is open its version is live ... *)
Theorem c04_snapshot_version_live : forall s, reachable s -> forall h hd v,
  handles s !! h = Some hd -> h_root hd = Some v -> is_Some (vers s !! v).
Proof. exact ProtoProofs.handle_live. Qed.
Print Assumptions c04_snapshot_version_live.

(* ... none of its cells is ever freed or recycled, whatever is done to the original or to other snapshots ... *)
Theorem c04_snapshot_cells_safe : forall s, reachable s -> forall v x n,
  vers s !! v = Some x -> n ∈ v_tree x -> exists k, marks s !! n = Some k /\ k <> F.
Proof. exact ProtoProofs.proto_safe. Qed.
Print Assumptions c04_snapshot_cells_safe.

(* ... and no step of anybody removes or replaces a cell of its tree (it only gains lazily loaded cells) *)
Theorem c04_snapshot_tree_stable : forall s s', reachable s -> step s s' -> forall v x x',
  vers s !! v = Some x -> vers s' !! v = Some x' ->
  v_tree x ⊆ v_tree x' /\ (forall n, n ∈ v_tree x' -> n ∉ v_tree x -> marks s' !! n = Some U /\ allocatable s n).
Proof. exact ProtoProofs.tree_stable. Qed.
Print Assumptions c04_snapshot_tree_stable.

(* the contents seen through one handle depend only on that handle's own collection: operations on
   other names / handles leave it unchanged (store level, over the sorted-map specification) *)
Theorem c04_others_untouched : forall s o n n' s' r, op_name o = Some n -> cmp_bytes n' n <> Eq ->
  sstep s o = (s', r) -> cget (ss_cur s') n' = cget (ss_cur s) n'.
Proof. exact StoreRefine.c12_others_untouched. Qed.
Print Assumptions c04_others_untouched.

(* store level, over whole histories on several handles (MStore.mrun is compared with the implementation):
   a snapshot that no operation of the history goes through is exactly as it was -- whatever is done to the original
   (mutations, flushes, evictions, collection removal or replacement, Close) or to other snapshots *)
Theorem c04_snapshot_isolated : forall ops s k, (k < length s)%nat ->
  (forall m, In m ops -> mop_handle m <> k) -> nth_error (mexec s ops) k = nth_error s k.
Proof. exact MStore.snapshot_isolated. Qed.
Print Assumptions c04_snapshot_isolated.

(* a snapshot starts with the current collections of its source, unflushed changes included, and is read-only *)
Theorem c04_snapshot_sees_current : forall s h hs s' r, nth_error s h = Some hs -> MStore.h_closed hs = false ->
  mstep s (MSnap h) = (s', r) ->
  exists sn, nth_error s' (length s) = Some sn /\ s_cur (MStore.h_store sn) = s_cur (MStore.h_store hs) /\ MStore.h_ro sn = true.
Proof. exact MStore.snapshot_sees_current. Qed.
Print Assumptions c04_snapshot_sees_current.

(* snapshots refuse Set, Delete and Flush, unchanged by the refusal *)
Theorem c04_snapshot_refuses : forall s h hs o s' r, nth_error s h = Some hs -> MStore.h_closed hs = false ->
  MStore.h_ro hs = true -> refused o = true -> mstep s (MOp h o) = (s', r) ->
  s' = s /\ (r = MOut RErr \/ r = MOut RNoColl).
Proof. exact MStore.snapshot_refuses. Qed.
Print Assumptions c04_snapshot_refuses.

(* nothing done through one handle changes any other handle *)
Theorem c04_step_isolated : forall s m s' r k, mstep s m = (s', r) -> k <> mop_handle m ->
  (k < length s)%nat -> nth_error s' k = nth_error s k.
Proof. exact MStore.mstep_isolated. Qed.
Print Assumptions c04_step_isolated.

(* About the Go source itself.  Generated.g_code is rewritten from the .go files by tools/gen on every run; the statements
   below are written by hand (Dec*.v, over the definitions of DecBase.v) and say what that code has at these points: the
   decisions the model takes there are the evaluations of the conditions of the Go source, for all values of their
   variables. *)
From GK Require Import GExpr Generated DecBase DecSnapshot.
From Coq Require Import String.

(* mutations and Flush are refused on a read-only store (MStore.snapshot_refuses) *)
Theorem c04_readonly_refuses_is_source :
  hd_error (conds 400 (body "Collection.SetItem")) = Some (GVar "t.store.readOnly") /\
  hd_error (conds 400 (body "Collection.Delete")) = Some (GVar "t.store.readOnly") /\
  hd_error (conds 400 (body "Store.Flush")) = Some (GVar "s.readOnly") /\
  nth_error (conds 400 (body "Store.Flush")) 1 = Some (GBin "==" (GVar "s.file") GNil) /\
  (forall f, In f ["Collection.SetItem"; "Collection.Delete"; "Store.Flush"] ->
     match body f with SIf [] _ (SReturn _ :: _) [] :: _ => True | _ => False end).
Proof. exact DecSnapshot.readonly_refuses. Qed.
Print Assumptions c04_readonly_refuses_is_source.

(* On bytes (DSnapshot.v): why a snapshot stays readable.  It holds the trees the original had at that moment and loads
   their records lazily from the shared file; the original only ever appends.  Along any history meeting C02's side
   conditions, what was current after step i is still represented by the file as it is after any later step j, record
   for record, as long as no FlushRevert lies in between -- and FlushRevert is exactly what breaks it (which is why
   FlushRevert on the original is not among the operations a snapshot survives). *)
From GK Require Import Codec Disk DiskProofs DStore DStoreRefine DSnapshot.
From Coq Require Import ZArith.

Theorem c04_original_only_appends :
  forall ds s ends o ds' r,
  R ds s ends -> op_okb ds o = true -> ops_ok (s_cmpreg s) [o] -> is_revert o = false ->
  dstep ds o = (ds', r) ->
  agree (d_file ds) (d_file ds') (d_size ds) /\ (d_size ds <= d_size ds')%Z.
Proof. exact DSnapshot.step_appends. Qed.
Print Assumptions c04_original_only_appends.

Theorem c04_snapshot_stays_readable :
  forall ops i j si sj,
  ops_ok [] ops -> history_ok ops ->
  (i <= j)%nat ->
  nth_error (dstates dinit ops) i = Some si -> nth_error (dstates dinit ops) j = Some sj ->
  forallb (fun o => negb (is_revert o)) (firstn (j - i) (skipn (S i) ops)) = true ->
  readable (d_file si) si /\ readable (d_file sj) si.
Proof. exact DSnapshot.snapshot_stays_readable. Qed.
Print Assumptions c04_snapshot_stays_readable.

Theorem c04_snapshot_loads_same :
  forall ops i j si sj nc,
  ops_ok [] ops -> history_ok ops -> (i <= j)%nat ->
  nth_error (dstates dinit ops) i = Some si -> nth_error (dstates dinit ops) j = Some sj ->
  forallb (fun o => negb (is_revert o)) (firstn (j - i) (skipn (S i) ops)) = true ->
  In nc (d_cur si) -> persisted (c_tree (snd nc)) ->
  (Treap.size (c_tree (snd nc)) <= S (List.length (d_file sj)))%nat ->
  load (S (List.length (d_file sj))) (d_file sj) (root_loc (c_tree (snd nc))) (d_size si) (S (List.length (d_file sj)))
  = Some (c_tree (snd nc), (S (List.length (d_file sj)) - Treap.size (c_tree (snd nc)))%nat).
Proof. exact DSnapshot.snapshot_loads_same. Qed.
Print Assumptions c04_snapshot_loads_same.

Theorem c04_revert_breaks_snapshots_refuted :
  exists ops i j si sj,
  ops_ok [] ops /\ history_ok ops /\ (i <= j)%nat /\
  nth_error (dstates dinit ops) i = Some si /\ nth_error (dstates dinit ops) j = Some sj /\
  ~ readable (d_file sj) si.
Proof. exact DSnapshot.revert_breaks_snapshots. Qed.
Print Assumptions c04_revert_breaks_snapshots_refuted.

(* Snapshot in the source: read-only, the same callbacks, file and lock objects, one more reference per collection *)
Theorem c04_snapshot_function_is_source :
  body "Store.Snapshot" =
    [SAssign [GVar "coll"] ":=" [GCall "copyColl" [GUn "*" (GCall "s.getColl" [])]];
     SAssign [GVar "res"] ":="
       [GUn "&" (GOther "Store{  coll:  &coll,  file:  s.file,  size:  atomic.LoadInt64(&s.size),  readOnly: true,  callbacks: s.callbacks, }")];
     SRange (GVar "_") (GVar "name") (GCall "collNames" [GVar "coll"])
       [SAssign [GVar "collOrig"] ":=" [GCall "[]" [GVar "coll"; GVar "name"]];
        SAssign [GCall "[]" [GVar "coll"; GVar "name"]] "="
          [GUn "&" (GOther "Collection{  store:  res,  compare: collOrig.compare,  rootLock: collOrig.rootLock,  root:  collOrig.rootAddRef(), }")]];
     SReturn [GVar "res"]].
Proof. exact DecSnapshot.snapshot_function. Qed.
Print Assumptions c04_snapshot_function_is_source.

From GK Require Import DecEvict.
(* items are shared between the versions a snapshot and the original hold: eviction forgets an item, it never edits it *)
Theorem c04_visit_evicts_whole_items_is_source :
  In "func(evictNode *node) {  if i := evictNode.Evict(); i != nil {   o.ItemDecRef(t, i)  } }" (calls 400 (body "Store.visitNodes")) /\
  (exists c, hd_error (conds 400 (body "Store.visitNodes")) = Some c) /\
  count_occ string_dec (calls 400 (body "Store.visitNodes")) "nNode.Evict" = 0%nat /\
  List.length (List.filter (has_sub "Evict") (calls 400 (body "Store.visitNodes"))) = 1%nat.
Proof. exact DecEvict.visit_evicts_whole_items. Qed.
Print Assumptions c04_visit_evicts_whole_items_is_source.

(* a handle that replaces an existing one shares its version record and the lock guarding it; every published map of
   collections is a fresh copy (a snapshot never shares the map the store goes on writing to) *)
From GK Require Import DecSetColl.
Theorem c04_set_collection_function_is_source :
  body "Store.SetCollection" =
    [SIf [] (GBin "==" (GVar "compare") GNil) [SAssign [GVar "compare"] "=" [GVar "bytes.Compare"]] [];
     SFor [] None []
       [SAssign [GVar "orig"] ":=" [GCall "s.getColl" []];
        SAssign [GVar "coll"] ":=" [GCall "copyColl" [GUn "*" (GCall "(*map[string]*Collection)" [GVar "orig"])]];
        SAssign [GVar "cnew"] ":=" [GCall "s.MakePrivateCollection" [GVar "compare"]];
        SAssign [GVar "cnew.name"] "=" [GVar "name"];
        SAssign [GVar "cold"] ":=" [GCall "[]" [GVar "coll"; GVar "name"]];
        SIf [] (GBin "!=" (GVar "cold") GNil)
          [SAssign [GVar "cnew.rootLock"] "=" [GVar "cold.rootLock"];
           SAssign [GVar "cnew.root"] "=" [GCall "cold.rootAddRef" []]] [];
        SAssign [GCall "[]" [GVar "coll"; GVar "name"]] "=" [GVar "cnew"];
        SIf [] (GCall "s.casColl" [GVar "orig"; GUn "&" (GVar "coll")])
          [SExpr (GCall "cold.closeCollection" []); SReturn [GVar "cnew"]] [];
        SExpr (GCall "cnew.closeCollection" [])]] /\
  body "copyColl" =
    [SAssign [GVar "res"] ":=" [GCall "make" [GOther "map[string]*Collection"]];
     SRange (GVar "name") (GVar "c") (GVar "orig")
       [SAssign [GCall "[]" [GVar "res"; GVar "name"]] "=" [GVar "c"]];
     SReturn [GVar "res"]].
Proof. exact DecSetColl.set_collection_function. Qed.
Print Assumptions c04_set_collection_function_is_source.
