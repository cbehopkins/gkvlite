(* C18 — iterators and re-entrant callbacks terminate cleanly without deadlock or leaks.
   PARTIAL (DESIGN.md): Iter.v is a transition system of the consumer (any list of Next/Close commands)
   and the producer goroutine over two unbuffered channels; Go's channel semantics are assumed as modelled.
   All theorems: for every collection size n, every command list, every interleaving. *)
From Coq Require Import String.
From GK Require Import Base Iter IterProofs Generated CallGraph.

Theorem c18_no_panic : forall n cmds0 s, reachable n cmds0 s -> panicked s = false.
Proof. exact IterProofs.T1_no_panic. Qed.
Print Assumptions c18_no_panic.

(* no deadlock: a state that is not final always has a step *)
Theorem c18_progress : forall n cmds0 s, reachable n cmds0 s -> ~ final s -> exists s', step n s s'.
Proof. exact IterProofs.T2_progress. Qed.
Print Assumptions c18_progress.

(* every execution is finite ... *)
Theorem c18_no_infinite_path : forall n (f : nat -> state), ~ (forall i, step n (f i) (f (S i))).
Proof. exact IterProofs.T3_no_infinite_path. Qed.
Print Assumptions c18_no_infinite_path.

(* ... and ends in a final state *)
Theorem c18_reaches_final : forall n cmds0 s, reachable n cmds0 s -> exists s', steps n s s' /\ final s'.
Proof. exact IterProofs.T3_reaches_final. Qed.
Print Assumptions c18_reaches_final.

(* the i-th Next returns item i-1 while items remain and no Close came before; false afterwards *)
Theorem c18_iter_results : forall n cmds0 s, reachable n cmds0 s -> final s -> results s = expected n cmds0.
Proof. exact IterProofs.T4_results. Qed.
Print Assumptions c18_iter_results.

(* after Close() or exhaustion the producer goroutine has exited and released the version it pinned *)
Theorem c18_producer_exits : forall n cmds0 s, reachable n cmds0 s -> final s -> Iter.closed s = true ->
  pph s = PDone /\ pinned s = false.
Proof. exact IterProofs.T5_producer_exits. Qed.
Print Assumptions c18_producer_exits.

Theorem c18_closed_leads_to_done : forall n cmds0 s, reachable n cmds0 s -> Iter.closed s = true ->
  forall s', steps n s s' -> (forall s'', ~ step n s' s'') -> pph s' = PDone /\ pinned s' = false /\ Iter.closed s' = true.
Proof. exact IterProofs.T5_closed_leads_to_done. Qed.
Print Assumptions c18_closed_leads_to_done.

(* exactly when a finished run leaves the producer parked with its pin: the client called Next between 1 and n
   times and never Close (an iterator must be abandoned by closing it) *)
Theorem c18_leak_characterisation : forall n cmds0 s, reachable n cmds0 s -> final s ->
  (pinned s = true <-> (forall c, In c cmds0 -> c = CNext) /\ (1 <= length cmds0 <= n)%nat).
Proof. exact IterProofs.leak_characterisation. Qed.
Print Assumptions c18_leak_characterisation.

(* re-entrancy: visitors (and comparators, block manglers) are never called, and no file I/O is done, while a
   gkvlite lock is held -- over the call graph regenerated from the source on every run -- so a visitor may call
   back into the store without self-deadlock *)
Theorem c18_no_callout_under_lock : forall f, In f g_funcs ->
  g_io_under f = false /\ g_user_under f = false /\
  forall c w h, In c (g_under f) -> reaches c w -> lookup_fn w = Some h ->
                g_reads h = false /\ g_writes h = false /\ g_user h = false.
Proof. exact CallGraph.no_callout_under_lock. Qed.
Print Assumptions c18_no_callout_under_lock.

(* the locks are always taken in one global order (over the regenerated call graph): B is acquired while A is held,
   directly or below a callee, only if A comes before B in lock_rank -- so the relation is acyclic *)
Theorem c18_lock_order_acyclic : forall a b, In (a, b) g_lock_order ->
  exists i j, index_of a lock_rank = Some i /\ index_of b lock_rank = Some j /\ (i < j)%nat.
Proof. exact CallGraph.lock_order_acyclic. Qed.
Print Assumptions c18_lock_order_acyclic.

(* About the Go source itself.  Generated.g_code is rewritten from the .go files by tools/gen on every run; the statements
   below are written by hand (Dec*.v, over the definitions of DecBase.v) and say what that code has at these points: the
   decisions the model takes there are the evaluations of the conditions of the Go source, for all values of their
   variables. *)
From GK Require Import GExpr Generated DecBase DecIter.
From Coq Require Import String.

(* iterators: Next on a closed iterator answers false without touching the channels; Close is idempotent (Iter.v) *)
Theorem c18_iterator_closed_guards_is_source :
  match body "iterator.Next" with SIf [] (GVar "it.closed") [SReturn [GVar "false"]] [] :: _ => True | _ => False end /\
  match body "iterator.Close" with
  | [SIf [] (GVar "it.closed") [SReturn []] []; SExpr (GCall "close" [GVar "it.next"]); SAssign [GVar "it.closed"] "=" [GVar "true"]] => True
  | _ => False
  end.
Proof. exact DecIter.iterator_closed_guards. Qed.
Print Assumptions c18_iterator_closed_guards_is_source.

From GK Require Import DecLocks.
(* nothing deadlocks: only the release of a version's last reference runs hooks under a lock *)
Theorem c18_hooks_under_locks_are_source : hook_under_lock = ["Collection.rootDecRef"; "withAllocLocks"].
Proof. exact DecLocks.hooks_under_locks. Qed.
Print Assumptions c18_hooks_under_locks_are_source.

(* the producer and consumer of an iterator in the source, statement by statement: the transition system of Iter.v *)
Theorem c18_iterator_functions_are_source :
  body "Collection.iterate" =
    [SDefer (GCall "func() {  close(it.items)   for range it.next {  } }" []);
     SIf [SAssign [GVar "_"; GVar "ok"] ":=" [GUn "<-" (GVar "it.next")]] (GUn "!" (GVar "ok")) [SReturn []] [];
     SAssign [GVar "it.err"] "=" [GCall "v" [GVar "t"; GFun "<lit:Collection.iterate#1>"]]] /\
  body "<lit:Collection.iterate#1>" =
    [SOther "it.items <- i";
     SAssign [GVar "_"; GVar "ok"] ":=" [GUn "<-" (GVar "it.next")];
     SReturn [GVar "ok"]] /\
  body "iterator.Next" =
    [SIf [] (GVar "it.closed") [SReturn [GVar "false"]] [];
     SOther "it.next <- true";
     SAssign [GVar "i"; GVar "ok"] ":=" [GUn "<-" (GVar "it.items")];
     SIf [] (GBin "||" (GUn "!" (GVar "ok")) (GBin "!=" (GVar "it.err") GNil))
       [SExpr (GCall "close" [GVar "it.next"]); SAssign [GVar "it.closed"] "=" [GVar "true"]; SReturn [GVar "false"]] [];
     SAssign [GVar "it.result"] "=" [GVar "i"];
     SReturn [GVar "true"]] /\
  body "newIterator" =
    [SAssign [GVar "it"] ":=" [GOther "iterator{}"];
     SAssign [GVar "it.target"] "=" [GVar "target"];
     SAssign [GVar "it.withValue"] "=" [GVar "withValue"];
     SAssign [GVar "it.next"] "=" [GCall "make" [GOther "chan bool"]];
     SAssign [GVar "it.items"] "=" [GCall "make" [GOther "chan *Item"]];
     SReturn [GUn "&" (GVar "it")]] /\
  body "Collection.IterateAscend" =
    [SAssign [GVar "it"] ":=" [GCall "newIterator" [GVar "target"; GVar "withValue"]];
     SGo (GCall "t.iteratorVisitorAscend" [GVar "it"]);
     SReturn [GVar "it"]].
Proof. exact DecIter.iterator_functions. Qed.
Print Assumptions c18_iterator_functions_are_source.

(* a failed mutation between two Next() calls or inside a visitor clears its reclaim marks node by node: the lock is
   released before unmarkReclaimable descends (it is not re-entrant), so the walk cannot block on itself *)
From GK Require Import DecMarks.
Theorem c18_unmark_releases_lock_before_descending_is_source :
  body "Collection.unmarkReclaimable" =
    [SIf [] (GCall "nloc.isEmpty" []) [SReturn []] [];
     SAssign [GVar "n"] ":=" [GCall "nloc.Node" []];
     SIf [] (GBin "==" (GVar "n") GNil) [SReturn []] [];
     SExpr (GCall "t.rootLock.Lock" []);
     SIf [] (GBin "==" (GVar "n.next") (GVar "reclaimMark")) [SAssign [GVar "n.next"] "=" [GNil]] [];
     SExpr (GCall "t.rootLock.Unlock" []);
     SExpr (GCall "t.unmarkReclaimable" [GUn "&" (GVar "n.left"); GVar "reclaimMark"]);
     SExpr (GCall "t.unmarkReclaimable" [GUn "&" (GVar "n.right"); GVar "reclaimMark"])] /\
  body "Collection.markReclaimable" =
    [SExpr (GCall "t.rootLock.Lock" []);
     SDefer (GCall "t.rootLock.Unlock" []);
     SIf [] (GBin "||" (GBin "||" (GBin "==" (GVar "n") GNil) (GBin "!=" (GVar "n.next") GNil))
                       (GBin "==" (GVar "n") (GVar "reclaimMark")))
       [SReturn []] [];
     SAssign [GVar "n.next"] "=" [GVar "reclaimMark"]].
Proof. exact DecMarks.unmark_walks_the_whole_tree. Qed.
Print Assumptions c18_unmark_releases_lock_before_descending_is_source.
