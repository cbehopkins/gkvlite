(* C16 — whole-collection enumerations cover every item exactly once, at every size.
   Blocks.v follows the counters of Len / determineBlocks / VisitItemsAscendBlockEx /
   VisitItemsRandom over the list semantics of the ascending visit (C06). *)
From Coq Require Import Permutation.
From GK Require Import Base Blocks BlocksProofs Generated Layout.

(* Len() equals the number of items, including 0 *)
Theorem c16_len : forall (A : Type) (l : list A), len_visit l = length l.
Proof. exact BlocksProofs.len_spec. Qed.
Print Assumptions c16_len.

(* VisitItemsAscendBlockEx presents every item exactly once: for EVERY collection size (empty, one item,
   sizes that are not a multiple of the block length, sizes above 1024) and EVERY block reordering *)
Theorem c16_block_visit : forall (A : Type) (l : list A) (mangle : list nat -> list nat),
  (forall bs, Permutation (mangle bs) bs) -> Permutation (block_visit mangle l) l.
Proof. exact BlocksProofs.block_visit_perm. Qed.
Print Assumptions c16_block_visit.

(* VisitItemsRandom likewise *)
Theorem c16_random_visit : forall (A : Type) (l : list A) (mangle : list nat -> list nat),
  (forall bs, Permutation (mangle bs) bs) -> Permutation (random_visit mangle l) l.
Proof. exact BlocksProofs.random_visit_perm. Qed.
Print Assumptions c16_random_visit.

(* the code as found (before the repair recorded in known_findings.txt) delivered the last item of a
   partial last block repeatedly: a one-item collection was delivered twice *)
Theorem c16_random_pinned_refuted : exists l : list nat,
  ~ Permutation (random_visit_pinned (fun bs => bs) l) l.
Proof. exact BlocksProofs.random_pinned_refuted. Qed.
Print Assumptions c16_random_pinned_refuted.

(* MaxBlockCnt of collection.go is 1024, the number Blocks.max_block_cnt is defined as *)
Theorem c16_max_block_cnt : g_max_block_cnt = 1024%Z.
Proof. exact Layout.max_block_cnt_is_1024. Qed.
Print Assumptions c16_max_block_cnt.

(* About the Go source itself.  Generated.g_code is rewritten from the .go files by tools/gen on every run; the statements
   below are written by hand (Dec*.v, over the definitions of DecBase.v) and say what that code has at these points: the
   decisions the model takes there are the evaluations of the conditions of the Go source, for all values of their
   variables. *)
From GK Require Import GExpr Generated DecBase DecBlocks.
From Coq Require Import String.

(* determineBlocks: the WHOLE translated body of the Go function, executed, is Blocks.determine_blocks *)
Theorem c16_determine_blocks_is_source : forall cnt : nat,
  gexec 50 (db_env (Z.of_nat cnt)) (body "Collection.determineBlocks") =
  RRet [Z.of_nat (fst (determine_blocks cnt)); Z.of_nat (snd (determine_blocks cnt)); 0%Z].
Proof. exact DecBlocks.determine_blocks_is_source. Qed.
Print Assumptions c16_determine_blocks_is_source.

(* the block start keys both enumerations keep between their passes are COPIES of the keys: the items they were taken from
   are released when the first pass leaves their nodes (repaired defect dd291f6) *)
From GK Require Import DecRecycle.
From Coq Require Import List.
Import ListNotations.
Theorem c16_block_keys_are_copies_is_source :
  hd (SReturn []) (body "<lit:Collection.VisitItemsAscendBlockEx#1>") =
    SIf [] (GBin "==" (GVar "j") (GInt 0))
      [SAssign [GVar "blockStore"] "=" [GCall "append" [GVar "blockStore"; copy_of "i.Key"]];
       SAssign [GVar "j"] "=" [GInt 1]]
      [SIf [] (GBin ">=" (GVar "j") (GVar "lenBlock")) [SAssign [GVar "j"] "=" [GInt 0]] [SIncDec (GVar "j") true]] /\
  body "<lit:Collection.VisitItemsRandom#1>" = body "<lit:Collection.VisitItemsAscendBlockEx#1>" /\
  In (SAssign [GCall "[]" [GVar "blockStore"; GVar "i"]] "=" [copy_of "itm.Key"])
     (body "<lit:Collection.VisitItemsRandom#2>").
Proof. exact DecRecycle.block_keys_are_copies. Qed.
Print Assumptions c16_block_keys_are_copies_is_source.
