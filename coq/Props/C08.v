(* C08 — FlushRevert restores exactly the previous Flush and always terminates. *)
From GK Require Import Base Treap Store StoreSpec StoreRefine Codec CodecProofs Disk DiskProofs DStore DStoreRefine.

(* termination: the scan of FlushRevert never runs out of fuel, for every file and size *)
Theorem c08_terminates : forall f size,
  scan f (if roots_len <? size then size - 1 else size) <> ScanOutOfFuel.
Proof. exact DiskProofs.revert_total. Qed.
Print Assumptions c08_terminates.

(* with the store positioned at the end e_k of a root record: exactly the previous root record
   (the greatest one ending below e_k) is restored and the file is truncated to its end *)
Theorem c08_reverts_one : forall f e_k m_k e_prev m_prev,
  root_at f e_k = Some m_k -> root_at f e_prev = Some m_prev -> e_prev < e_k ->
  (forall e', e_prev < e' < e_k -> root_at f e' = None) ->
  revert_bytes f e_k = (firstn (Z.to_nat e_prev) f, e_prev, m_prev).
Proof. exact DiskProofs.revert_previous. Qed.
Print Assumptions c08_reverts_one.

(* no earlier Flush: an empty store with no collections, file truncated to zero length *)
Theorem c08_reverts_to_empty : forall f e_k, (forall e', e' < e_k -> root_at f e' = None) ->
  roots_len < e_k -> revert_bytes f e_k = ([], 0, []).
Proof. exact DiskProofs.revert_to_empty. Qed.
Print Assumptions c08_reverts_to_empty.

(* re-opening the truncated file agrees: it ends exactly at that root record and the scan finds it,
   so repeated reverts walk back one Flush at a time (apply c08_reverts_one again at e_prev) *)
Theorem c08_reopen_agrees : forall f e m, root_at f e = Some m ->
  let f' := firstn (Z.to_nat e) f in blen f' = e /\ scan f' (blen f') = ScanFound e m.
Proof. exact DiskProofs.revert_reopens. Qed.
Print Assumptions c08_reopen_agrees.

(* over whole histories: with any number of flushes, re-opens, pending changes and consecutive reverts (also past the
   first flush), the byte-level store answers exactly like the store whose FlushRevert pops a stack of flushed states *)
Theorem c08_walks_back : forall ops, ops_ok [] ops -> history_ok ops -> drun dinit ops = run (init true) ops.
Proof. exact DStoreRefine.dstore_refines_store_exact. Qed.
Print Assumptions c08_walks_back.

(* REFUTED without the "no spurious root record" side condition: a committed value that is itself a complete root
   record consistent with the position it lands at stops FlushRevert (the model returns no collections where the
   previous Flush held collection a).  The same history fails on the implementation: known finding
   value-is-valid-root-record, probed on every run. *)
Theorem c08_refuted_value_is_root_record :
  ops_ok [] cex_history /\ dhist_ok0 dinit cex_history = true /\
  drun dinit cex_history = [ROk; ROk; ROk; ROk; ROk; RNames []] /\
  run (init true) cex_history = [ROk; ROk; ROk; ROk; ROk; RNames [[97%N]]].
Proof. exact DStoreRefine.h4_needed. Qed.
Print Assumptions c08_refuted_value_is_root_record.

(* About the Go source itself.  Generated.g_code is rewritten from the .go files by tools/gen on every run; the statements
   below are written by hand (Dec*.v, over the definitions of DecBase.v) and say what that code has at these points: the
   decisions the model takes there are the evaluations of the conditions of the Go source, for all values of their
   variables. *)
From GK Require Import GExpr Generated DecBase DecRoot DecRevert.
From Coq Require Import String.

(* the recorded offset of a root record and the length it implies (Codec.root_at) *)
Theorem c08_root_offset_check_is_source :
  exists c, decisions "Store.checkAndReadRoots" "offset" = [c] /\
    forall offset size len len32 : Z,
      let rho := upd (upd (upd (upd (upd env0 "offset" offset) "atomic.LoadInt64(&s.size)" size) "rootsLen" roots_len)
                          "length" len) "uint32((atomic.LoadInt64(&s.size)-offset))" len32 in
      gtrue rho c = Some (Z.geb offset 0 && Z.ltb offset (size - roots_len) && Z.eqb len len32).
Proof. exact DecRoot.root_offset_decision. Qed.
Print Assumptions c08_root_offset_check_is_source.

(* FlushRevert steps below the current root only when the store is longer than an empty root record (Disk.revert_bytes) *)
Theorem c08_revert_step_is_source :
  exists c, decisions "Store.FlushRevert" "rootsLen" = [c] /\
    forall size : Z, gtrue (upd (upd env0 "atomic.LoadInt64(&s.size)" size) "rootsLen" roots_len) c = Some (Z.ltb roots_len size).
Proof. exact DecRevert.revert_step_decision. Qed.
Print Assumptions c08_revert_step_is_source.

(* the backward scan: gives up at size <= rootsLen, tests MagicEnd at offsets 12 and 18 of the trailer, else moves down by one byte (Disk.scan) *)
Theorem c08_scan_stop_is_source :
  exists c, hd_error (conds 400 scan_loop) = Some c /\
    forall size : Z, gtrue (upd (upd env0 "atomic.LoadInt64(&s.size)" size) "rootsLen" roots_len) c = Some (Z.leb size roots_len).
Proof. exact DecRoot.scan_stop_decision. Qed.
Print Assumptions c08_scan_stop_is_source.

Theorem c08_scan_step_is_source :
  last scan_loop (SOther "") = SExpr (GCall "atomic.AddInt64" [GUn "&" (GVar "s.size"); GInt (-1)]).
Proof. exact DecRoot.scan_step_is_one. Qed.
Print Assumptions c08_scan_step_is_source.

Theorem c08_scan_magic_offsets_is_source :
  exists c, nth_error (conds 400 scan_loop) 3 = Some c /\
    c = GBin "&&" (GCall "bytes.Equal" [GVar "MagicEnd"; GCall "[:]" [GVar "rootsEnd"; GInt 12; GBin "+" (GInt 12) (GCall "len" [GVar "MagicEnd"])]])
                  (GCall "bytes.Equal" [GVar "MagicEnd"; GCall "[:]" [GVar "rootsEnd"; GBin "+" (GInt 12) (GCall "len" [GVar "MagicEnd"]); GNil]]) /\
    geval (upd env0 "len(MagicEnd)" (Z.of_nat (List.length g_magic_end))) (GBin "+" (GInt 12) (GCall "len" [GVar "MagicEnd"])) = Some 18%Z /\
    roots_end_len = 24%Z.
Proof. exact DecRoot.scan_magic_offsets. Qed.
Print Assumptions c08_scan_magic_offsets_is_source.

Theorem c08_revert_order_is_source :
  let l := call_list "Store.FlushRevert" in
  before "s.readRootsScan" "s.file.Truncate" l = true /\
  count_occ string_dec l "s.file.Truncate" = 1%nat /\
  before "atomic.AddInt64" "s.readRootsScan" l = true.
Proof. exact DecRevert.revert_order. Qed.
Print Assumptions c08_revert_order_is_source.

From GK Require Import DecLocks.
(* FlushRevert always terminates: the collection table's lock is never held while a StoreCallbacks hook runs *)
Theorem c08_hooks_under_locks_are_source : hook_under_lock = ["Collection.rootDecRef"; "withAllocLocks"].
Proof. exact DecLocks.hooks_under_locks. Qed.
Print Assumptions c08_hooks_under_locks_are_source.
