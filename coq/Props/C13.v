(* C13 — tree invariants: search order, exact aggregates, heap order, canonical shape. *)
From GK Require Import Base Order Treap TreapSpec Store StoreSpec StoreRefine Corollaries Codec CodecProofs Disk DiskProofs HeapHistory.

(* at all times: every collection of every reachable state (any history whatsoever in which
   names keep their comparator) is a search tree under its comparator in which every node
   records the exact item count and byte total of its subtree; flushed states likewise (wf) *)
Theorem c13_bst_aggs_always : forall file ops n c, ops_ok [] ops ->
  cget (s_cur (exec (init file) ops)) n = Some c ->
  bst (cmp_of (c_cmp c)) (c_tree c) /\ aggs (c_tree c).
Proof. exact Corollaries.reachable_tree_invariants. Qed.
Print Assumptions c13_bst_aggs_always.

Theorem c13_reachable_wf : forall file ops, ops_ok [] ops -> wf (exec (init file) ops).
Proof. exact Corollaries.reachable_wf. Qed.
Print Assumptions c13_reachable_wf.

(* as long as no key is overwritten with a lower priority than it had, no child outranks its parent *)
Theorem c13_set_keeps_heap : forall cmp, cmp_laws cmp -> forall t key v prio t',
  bst cmp t -> heap t ->
  (forall old, find cmp key (elems t) = Some old -> iprio old <= prio) ->
  set_item cmp t key (Some v) prio = Some t' -> heap t'.
Proof. exact Corollaries.set_item_heap. Qed.
Print Assumptions c13_set_keeps_heap.

Theorem c13_delete_keeps_heap : forall cmp, cmp_laws cmp -> forall t k t' b,
  bst cmp t -> heap t -> delete cmp t k = (t', b) -> heap t'.
Proof. exact Corollaries.delete_heap. Qed.
Print Assumptions c13_delete_keeps_heap.

(* the side condition is needed: overwriting with a lower priority can break heap order *)
Theorem c13_heap_refuted_lower_overwrite :
  exists t it, bst cmp_bytes t /\ heap t /\ ~ heap (insert cmp_bytes t it).
Proof. exact TreapSpec.heap_refuted_lower_overwrite. Qed.
Print Assumptions c13_heap_refuted_lower_overwrite.

(* with pairwise distinct priorities the shape, and therefore every depth, is determined by the
   current keys and priorities alone (hence independent of operation order, eviction, flushing, re-opening) *)
Theorem c13_canonical_shape : forall cmp a b, bst cmp a -> bst cmp b -> heap a -> heap b ->
  elems a = elems b -> NoDup (map iprio (elems a)) -> shape_of a = shape_of b.
Proof. exact TreapSpec.treap_unique. Qed.
Print Assumptions c13_canonical_shape.

Theorem c13_canonical_depth : forall cmp a b, bst cmp a -> bst cmp b -> heap a -> heap b ->
  elems a = elems b -> NoDup (map iprio (elems a)) -> forall d, depths a d = depths b d.
Proof. exact Corollaries.depth_canonical. Qed.
Print Assumptions c13_canonical_depth.

(* ... and as persisted on file: the flushed file passes conforms_v4, which checks on the RECORDS reachable
   from the last root exact numNodes/numBytes at every node and search order under each collection's comparator *)
Theorem c13_persisted_invariants : forall cmpid f size cs f' size' cs',
  Forall (coll_ok f size) cs -> 0 <= size <= blen f -> flush_bytes f size cs = (f', size', cs') ->
  size' < two63 -> roots_len + blen (enc_json (root_map cs')) < two32 -> blen f' = size' ->
  Forall (fun nc => NoDup (node_offs (c_tree (snd nc)))) cs ->
  names_b (tmap cs) = true -> Forall (coll_conf cmpid) cs -> conforms_v4 cmpid f' = true.
Proof. exact DiskProofs.flush_conforms_nodup. Qed.
Print Assumptions c13_persisted_invariants.

(* over whole histories: as long as the history never overwrites a key with a lower priority than it had
   (no_lower_overwrite, evaluated against the evolving state), every tree of every reachable state -- current and
   flushed -- has no child outranking its parent *)
Theorem c13_heap_history : forall file ops, ops_ok [] ops -> no_lower_overwrite (init file) ops ->
  heap_store (exec (init file) ops).
Proof. exact HeapHistory.c13_heap_history. Qed.
Print Assumptions c13_heap_history.

(* and with distinct priorities the shape and every depth are independent of the history that led there *)
Theorem c13_history_canonical : forall f1 f2 ops1 ops2 n c1 c2,
  ops_ok [] ops1 -> ops_ok [] ops2 ->
  no_lower_overwrite (init f1) ops1 -> no_lower_overwrite (init f2) ops2 ->
  cget (s_cur (exec (init f1) ops1)) n = Some c1 -> cget (s_cur (exec (init f2) ops2)) n = Some c2 ->
  c_cmp c1 = c_cmp c2 -> elems (c_tree c1) = elems (c_tree c2) -> NoDup (map iprio (elems (c_tree c1))) ->
  shape_of (c_tree c1) = shape_of (c_tree c2) /\ forall d, depths (c_tree c1) d = depths (c_tree c2) d.
Proof. exact HeapHistory.c13_history_canonical. Qed.
Print Assumptions c13_history_canonical.

(* About the Go source itself.  Generated.g_code is rewritten from the .go files by tools/gen on every run; the statements
   below are written by hand (Dec*.v, over the definitions of DecBase.v) and say what that code has at these points: the
   decisions the model takes there are the evaluations of the conditions of the Go source, for all values of their
   variables. *)
From GK Require Import GExpr Generated DecBase DecTreap.
From Coq Require Import String.

(* treap.go union / join: the root is `this` iff its priority is strictly greater (ties go to `that`) *)
Theorem c13_union_priority_is_source :
  exists c, decisions "Store.union" "thisItem.Priority" = [c] /\
            forall x y, gtrue (prio_env x y) c = Some (Z.gtb x y).
Proof. exact DecTreap.union_priority_decision. Qed.
Print Assumptions c13_union_priority_is_source.
Theorem c13_join_priority_is_source :
  exists c, decisions "Store.join" "thisItem.Priority" = [c] /\
            forall x y, gtrue (prio_env x y) c = Some (Z.gtb x y).
Proof. exact DecTreap.join_priority_decision. Qed.
Print Assumptions c13_join_priority_is_source.

(* every node union / split / join build carries numNodes = left + right + 1 and numBytes = left + right + the bytes of
   the item it is built with, the children's aggregates read from exactly the children it is built with (Treap.mk);
   the node SetItem builds is Treap.single *)
Theorem c13_node_aggregates_are_source :
  aggs_ok None (agg_calls "Store.union") = true /\ aggs_ok None (agg_calls "Store.split") = true /\
  aggs_ok None (agg_calls "Store.join") = true /\
  List.length (filter (fun c => String.eqb (fst c) "t.mkNode") (agg_calls "Store.union")) = 3%nat /\
  List.length (filter (fun c => String.eqb (fst c) "t.mkNode") (agg_calls "Store.split")) = 2%nat /\
  List.length (filter (fun c => String.eqb (fst c) "t.mkNode") (agg_calls "Store.join")) = 2%nat /\
  (forall ln rn lb rb ib : Z,
     let rho := upd (upd (upd (upd (upd env0 "leftNum" ln) "rightNum" rn) "leftBytes" lb) "rightBytes" rb) "x.NumBytes(t)" ib in
     geval rho (GBin "+" (GBin "+" (GVar "leftNum") (GVar "rightNum")) (GInt 1)) = Some (ln + rn + 1)%Z /\
     geval rho (GBin "+" (GBin "+" (GVar "leftBytes") (GVar "rightBytes")) (GCall "uint64" [GCall "x.NumBytes" [GVar "t"]])) = Some (lb + rb + ib)%Z).
Proof. exact DecTreap.node_aggregates_are_mk. Qed.
Print Assumptions c13_node_aggregates_are_source.

Theorem c13_new_node_is_source :
  agg_calls "Collection.SetItem" =
  [("t.mkNode", [GNil; GNil; GNil; GInt 1;
                 GBin "+" (GCall "uint64" [GCall "len" [GVar "item.Key"]]) (GCall "uint64" [GCall "item.NumValBytes" [GVar "t"]])])].
Proof. exact DecTreap.new_node_is_single. Qed.
Print Assumptions c13_new_node_is_source.

(* the reclaim marks a failed mutation left are cleared wherever they are: unmarkReclaimable walks the whole loaded tree
   (no early stop at an unmarked node), one lock section per node, released before it descends *)
From GK Require Import DecMarks.
Theorem c13_unmark_walks_the_whole_tree_is_source :
  body "Collection.unmarkReclaimable" =
    [SIf [] (GCall "nloc.isEmpty" []) [SReturn []] [];
     SAssign [GVar "n"] ":=" [GCall "nloc.Node" []];
     SIf [] (GBin "==" (GVar "n") GNil) [SReturn []] [];
     SExpr (GCall "t.rootLock.Lock" []);
     SIf [] (GBin "==" (GVar "n.next") (GVar "reclaimMark")) [SAssign [GVar "n.next"] "=" [GNil]] [];
     SExpr (GCall "t.rootLock.Unlock" []);
     SExpr (GCall "t.unmarkReclaimable" [GUn "&" (GVar "n.left"); GVar "reclaimMark"]);
     SExpr (GCall "t.unmarkReclaimable" [GUn "&" (GVar "n.right"); GVar "reclaimMark"])] /\
  body "Collection.markReclaimable" =
    [SExpr (GCall "t.rootLock.Lock" []);
     SDefer (GCall "t.rootLock.Unlock" []);
     SIf [] (GBin "||" (GBin "||" (GBin "==" (GVar "n") GNil) (GBin "!=" (GVar "n.next") GNil))
                       (GBin "==" (GVar "n") (GVar "reclaimMark")))
       [SReturn []] [];
     SAssign [GVar "n.next"] "=" [GVar "reclaimMark"]].
Proof. exact DecMarks.unmark_walks_the_whole_tree. Qed.
Print Assumptions c13_unmark_walks_the_whole_tree_is_source.
