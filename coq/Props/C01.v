(* C01 — each collection behaves exactly like a sorted map.
   Only statements; each is closed by an existing lemma: first about the model, then about
   Generated.g_code. *)
From GK Require Import Base Order Treap TreapSpec Store StoreSpec StoreRefine.

(* For every operation list in which a collection name keeps its comparator, on
   any number of collections, file-backed or memory-only, with flushes, evictions
   and re-opens anywhere: the treap store returns what the store of strictly
   sorted association lists (StoreSpec.sstep) returns. *)
Theorem c01_refines_sorted_map : forall file ops, ops_ok [] ops ->
  map erase (run (init file) ops) = map erase (srun (sinit file) ops).
Proof. exact StoreRefine.c01_refines_sorted_map. Qed.
Print Assumptions c01_refines_sorted_map.

(* from every well-formed state, not only the initial one, and exactly (no erasure) for all non-visit calls *)
Theorem c01_step_exact : forall s o s' r, wf s -> ops_ok (s_cmpreg s) [o] -> is_visit o = false ->
  step s o = (s', r) -> wf s' /\ sstep (abs s) o = (abs s', r).
Proof. exact StoreRefine.step_refines_exact. Qed.
Print Assumptions c01_step_exact.

(* the list specification is a map: lookups return the last item stored under the key *)
Theorem c01_find_ins_same : forall cmp, cmp_laws cmp -> forall it l, sorted cmp l ->
  find cmp (ikey it) (ins cmp it l) = Some it.
Proof. exact TreapSpec.find_ins_same. Qed.
Print Assumptions c01_find_ins_same.

Theorem c01_find_ins_other : forall cmp, cmp_laws cmp -> forall k it l, sorted cmp l ->
  cmp k (ikey it) <> Eq -> find cmp k (ins cmp it l) = find cmp k l.
Proof. exact TreapSpec.find_ins_other. Qed.
Print Assumptions c01_find_ins_other.

Theorem c01_find_del_same : forall cmp, cmp_laws cmp -> forall k l, sorted cmp l ->
  find cmp k (del cmp k l) = None.
Proof. exact TreapSpec.find_del_same. Qed.
Print Assumptions c01_find_del_same.

Theorem c01_find_del_other : forall cmp, cmp_laws cmp -> forall k k' l, sorted cmp l ->
  cmp k k' <> Eq -> find cmp k' (del cmp k l) = find cmp k' l.
Proof. exact TreapSpec.find_del_other. Qed.
Print Assumptions c01_find_del_other.

(* GetTotals is the exact item count and the exact sum of key+value lengths *)
Theorem c01_totals_exact : forall t, aggs t ->
  totals t = (Z.of_nat (length (elems t)), sum_bytes (elems t)).
Proof. exact TreapSpec.totals_exact. Qed.
Print Assumptions c01_totals_exact.

(* invalid items (empty or oversized key, nil value, negative priority) are rejected and change nothing *)
Theorem c01_invalid_rejected : forall s n key val prio s' r, valid_item key val prio = false ->
  sstep s (OSet n key val prio) = (s', r) -> s' = s /\ (r = RErr \/ r = RNoColl).
Proof. exact StoreRefine.c01_invalid_rejected. Qed.
Print Assumptions c01_invalid_rejected.

(* SetItem's union with a single node is the structurally recursive insert, for every comparator *)
Theorem c01_union_is_insert : forall cmp f t it, (height t < f)%nat ->
  union cmp f t (single it) = Some (insert cmp t it).
Proof. exact TreapSpec.union_single. Qed.
Print Assumptions c01_union_is_insert.

(* the four comparators used by the correspondence check satisfy the laws *)
Theorem c01_comparators_lawful : forall id, cmp_laws (cmp_of id).
Proof. exact Order.cmp_of_laws. Qed.
Print Assumptions c01_comparators_lawful.

(* About the Go source itself.  Generated.g_code is rewritten from the .go files by tools/gen on every run; the statements
   below are written by hand (Dec*.v, over the definitions of DecBase.v) and say what that code has at these points: the
   decisions the model takes there are the evaluations of the conditions of the Go source, for all values of their
   variables. *)
From GK Require Import GExpr Generated DecBase DecTreap.
From Coq Require Import String.

(* treap.go union / join: the root is `this` iff its priority is strictly greater (ties go to `that`) *)
Theorem c01_union_priority_is_source :
  exists c, decisions "Store.union" "thisItem.Priority" = [c] /\
            forall x y, gtrue (prio_env x y) c = Some (Z.gtb x y).
Proof. exact DecTreap.union_priority_decision. Qed.
Print Assumptions c01_union_priority_is_source.
Theorem c01_join_priority_is_source :
  exists c, decisions "Store.join" "thisItem.Priority" = [c] /\
            forall x y, gtrue (prio_env x y) c = Some (Z.gtb x y).
Proof. exact DecTreap.join_priority_decision. Qed.
Print Assumptions c01_join_priority_is_source.

(* split and GetItem branch on the three-way comparison as Treap.split / Treap.lookup match on it *)
Theorem c01_split_compare_is_source :
  exists c1 c2, decisions "Store.split" "c" = [c1; c2] /\
    forall o : comparison,
      gtrue (c_env (cmpz o)) c1 = Some (match o with Eq => true | _ => false end) /\
      gtrue (c_env (cmpz o)) c2 = Some (match o with Lt => true | _ => false end).
Proof. exact DecTreap.split_compare_decisions. Qed.
Print Assumptions c01_split_compare_is_source.
Theorem c01_getitem_compare_is_source :
  exists c1 c2, decisions "Collection.GetItem" "c" = [c1; c2] /\
    forall o : comparison,
      gtrue (c_env (cmpz o)) c1 = Some (match o with Lt => true | _ => false end) /\
      gtrue (c_env (cmpz o)) c2 = Some (match o with Gt => true | _ => false end).
Proof. exact DecTreap.getitem_compare_decisions. Qed.
Print Assumptions c01_getitem_compare_is_source.

(* SetItem's validation is Treap.valid_item *)
Theorem c01_validation_is_source :
  exists c1 c2,
    decisions "Collection.SetItem" "item.Key" = [c1] /\ decisions "Collection.SetItem" "item.Priority" = [c2] /\
    forall keynil key val prio, (keynil = true -> key = []) ->
      exists b1 b2, gtrue (item_env keynil key val prio) c1 = Some b1 /\
                    gtrue (item_env keynil key val prio) c2 = Some b2 /\
                    valid_item key val prio = negb b1 && negb b2.
Proof. exact DecTreap.setitem_validation_decisions. Qed.
Print Assumptions c01_validation_is_source.

(* every node union / split / join build carries numNodes = left + right + 1 and numBytes = left + right + the bytes of
   the item it is built with, the children's aggregates read from exactly the children it is built with (Treap.mk);
   the node SetItem builds is Treap.single *)
Theorem c01_node_aggregates_are_source :
  aggs_ok None (agg_calls "Store.union") = true /\ aggs_ok None (agg_calls "Store.split") = true /\
  aggs_ok None (agg_calls "Store.join") = true /\
  List.length (filter (fun c => String.eqb (fst c) "t.mkNode") (agg_calls "Store.union")) = 3%nat /\
  List.length (filter (fun c => String.eqb (fst c) "t.mkNode") (agg_calls "Store.split")) = 2%nat /\
  List.length (filter (fun c => String.eqb (fst c) "t.mkNode") (agg_calls "Store.join")) = 2%nat /\
  (forall ln rn lb rb ib : Z,
     let rho := upd (upd (upd (upd (upd env0 "leftNum" ln) "rightNum" rn) "leftBytes" lb) "rightBytes" rb) "x.NumBytes(t)" ib in
     geval rho (GBin "+" (GBin "+" (GVar "leftNum") (GVar "rightNum")) (GInt 1)) = Some (ln + rn + 1)%Z /\
     geval rho (GBin "+" (GBin "+" (GVar "leftBytes") (GVar "rightBytes")) (GCall "uint64" [GCall "x.NumBytes" [GVar "t"]])) = Some (lb + rb + ib)%Z).
Proof. exact DecTreap.node_aggregates_are_mk. Qed.
Print Assumptions c01_node_aggregates_are_source.

Theorem c01_new_node_is_source :
  agg_calls "Collection.SetItem" =
  [("t.mkNode", [GNil; GNil; GNil; GInt 1;
                 GBin "+" (GCall "uint64" [GCall "len" [GVar "item.Key"]]) (GCall "uint64" [GCall "item.NumValBytes" [GVar "t"]])])].
Proof. exact DecTreap.new_node_is_single. Qed.
Print Assumptions c01_new_node_is_source.
