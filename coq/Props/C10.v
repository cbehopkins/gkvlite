(* C10 — internal node recycling is invisible to every open handle.
   Theorems about the protocol model Proto.v: EVERY sequence of protocol actions
   (any number of lineages = stores x collections sharing one mark map / free list,
   readers pinning and unpinning, snapshots, replaced and closed handles in any order,
   mutations begun, built and published or aborted, lazy loads, and REUSE of freed cells). *)
From stdpp Require Import gmap.
From GK Require Import Proto ProtoProofs.

(* no cell of a live version's tree is ever on the free list (hence never reused under it) *)
Theorem c10_no_live_cell_freed : forall s, reachable s -> forall v x n,
  vers s !! v = Some x -> n ∈ v_tree x -> exists k, marks s !! n = Some k /\ k <> F.
Proof. exact ProtoProofs.proto_safe. Qed.
Print Assumptions c10_no_live_cell_freed.

(* the tree of a live version only grows by lazy loads of fresh/recycled cells: nothing in it is removed or replaced *)
Theorem c10_tree_stable : forall s s', reachable s -> step s s' -> forall v x x',
  vers s !! v = Some x -> vers s' !! v = Some x' ->
  v_tree x ⊆ v_tree x' /\ (forall n, n ∈ v_tree x' -> n ∉ v_tree x -> marks s' !! n = Some U /\ allocatable s n).
Proof. exact ProtoProofs.tree_stable. Qed.
Print Assumptions c10_tree_stable.

(* the version an open handle points to, and a version pinned by a reader, have not been released *)
Theorem c10_handle_live : forall s, reachable s -> forall h hd v,
  handles s !! h = Some hd -> h_root hd = Some v -> is_Some (vers s !! v).
Proof. exact ProtoProofs.handle_live. Qed.
Print Assumptions c10_handle_live.

Theorem c10_pinned_live : forall s, reachable s -> forall v p,
  pins s !! v = Some (S p) -> is_Some (vers s !! v).
Proof. exact ProtoProofs.pinned_live. Qed.
Print Assumptions c10_pinned_live.

(* nothing is freed twice *)
Theorem c10_no_double_free : forall s v x n, freeable s v x n -> marks s !! n <> Some F.
Proof. exact ProtoProofs.no_double_free. Qed.
Print Assumptions c10_no_double_free.

(* the model really reuses freed cells (the theorems are not vacuous about reuse) *)
Theorem c10_reuse_reachable : exists s s', reachable s /\ marks s !! 1%positive = Some F /\ step s s' /\
  marks s' !! 1%positive = Some U /\ (exists v x, vers s' !! v = Some x /\ 1%positive ∈ v_tree x).
Proof. exact ProtoProofs.reuse_reachable. Qed.
Print Assumptions c10_reuse_reachable.

(* invariants that are evaluated on the implementation's heap dump after every step *)
Theorem c10_current_tree_unmarked : forall s, reachable s -> forall h hd v x,
  handles s !! h = Some hd -> h_ro hd = false -> h_root hd = Some v -> muts s !! h_lin hd = None ->
  vers s !! v = Some x -> forall n, n ∈ v_tree x -> marks s !! n = Some U.
Proof. exact ProtoProofs.current_tree_unmarked. Qed.
Print Assumptions c10_current_tree_unmarked.

Theorem c10_refs_accounting : forall s, reachable s -> forall v x, vers s !! v = Some x ->
  v_refs x = cnt (fun hd => h_root hd = Some v) (handles s) + pin_count s v +
             cnt (fun y => v_chain y = Some v) (vers s) + cnt (fun m => m_ver m = v) (muts s).
Proof. exact ProtoProofs.refs_accounting. Qed.
Print Assumptions c10_refs_accounting.

Theorem c10_superseded_chained : forall s, reachable s -> forall v x,
  vers s !! v = Some x -> v_super x = true -> exists w, v_chain x = Some w /\ is_Some (vers s !! w).
Proof. exact ProtoProofs.superseded_chained. Qed.
Print Assumptions c10_superseded_chained.

(* About the Go source itself.  Generated.g_code is rewritten from the .go files by tools/gen on every run; the statements
   below are written by hand (Dec*.v, over the definitions of DecBase.v) and say what that code has at these points: the
   decisions the model takes there are the evaluations of the conditions of the Go source, for all values of their
   variables. *)
From GK Require Import GExpr Generated DecBase DecProto DecPublish.
From Coq Require Import String.

(* rootCAS chains the new version behind the previous one iff the previous one has more than two references
   (Proto.v: chained := bool_decide (2 < v_refs x)) *)
Theorem c10_chain_rule_is_source :
  exists c, decisions "Collection.rootCAS" "prev.refs" = [c] /\
    forall refs : Z, gtrue (upd (upd env0 "prev" 1%Z) "prev.refs" refs) c = Some (Z.ltb 2 refs).
Proof. exact DecProto.rootcas_chain_decision. Qed.
Print Assumptions c10_chain_rule_is_source.

(* rootDecRefUnlocked / rootAddRef: Proto.decref and the pin / handle steps *)
Theorem c10_decref_is_source :
  forall r : Z,
  exists rest, body "Collection.rootDecRefUnlocked" = SIncDec (GVar "r.refs") false :: SIf [] (GBin ">" (GVar "r.refs") (GInt 0)) [SReturn []] [] :: rest /\
  (Z.lt 1 r -> gexec 10 (upd env0 "r.refs" r) (firstn 2 (body "Collection.rootDecRefUnlocked")) = RRet []) /\
  (r = 1%Z -> exists rho, gexec 10 (upd env0 "r.refs" r) (firstn 2 (body "Collection.rootDecRefUnlocked")) = RFall rho /\ rho "r.refs" = Some 0%Z).
Proof. exact DecProto.decref_decision. Qed.
Print Assumptions c10_decref_is_source.

Theorem c10_death_marks_unless_superseded_is_source :
  exists c, decisions "Collection.rootDecRefUnlocked" "r.superseded" = [c] /\
    forall sup : bool, gtrue (upd env0 "r.superseded" (b2z sup)) c = Some (negb sup).
Proof. exact DecProto.death_marks_unless_superseded. Qed.
Print Assumptions c10_death_marks_unless_superseded_is_source.

Theorem c10_death_releases_chain_is_source :
  exists c, decisions "Collection.rootDecRefUnlocked" "r.chainedCollection" = [c] /\
    forall a b : bool, gtrue (upd (upd env0 "r.chainedCollection" (b2z a)) "r.chainedRootNodeLoc" (b2z b)) c = Some (a && b).
Proof. exact DecProto.death_releases_chain. Qed.
Print Assumptions c10_death_releases_chain_is_source.

Theorem c10_addref_is_source :
  exists pre post, body "Collection.rootAddRef" = pre ++ SIncDec (GVar "t.root.refs") true :: post /\
                   Forall (fun s => match s with SIncDec _ _ | SAssign _ _ _ => False | _ => True end) (pre ++ post).
Proof. exact DecProto.addref_is_increment. Qed.
Print Assumptions c10_addref_is_source.

Theorem c10_mutation_publish_order_is_source :
  before "t.rootAddRef" "t.store.union" (call_list "Collection.SetItem") = true /\
  before "t.store.union" "t.unmarkReclaimable" (call_list "Collection.SetItem") = true /\
  before "t.store.union" "t.rootCAS" (call_list "Collection.SetItem") = true /\
  before "t.rootAddRef" "t.store.split" (call_list "Collection.Delete") = true /\
  before "t.store.split" "t.store.join" (call_list "Collection.Delete") = true /\
  before "t.store.join" "t.rootCAS" (call_list "Collection.Delete") = true /\
  count_occ string_dec (call_list "Collection.Delete") "t.unmarkReclaimable" = 2%nat /\
  count_occ string_dec (call_list "Collection.SetItem") "t.rootCAS" = 1%nat /\
  count_occ string_dec (call_list "Collection.Delete") "t.rootCAS" = 1%nat.
Proof. exact DecPublish.mutation_publish_order. Qed.
Print Assumptions c10_mutation_publish_order_is_source.

(* the version protocol in the source, statement by statement: rootCAS (Proto mcas), rootDecRef, closeCollection (Proto close) *)
Theorem c10_protocol_functions_are_source :
  body "Collection.rootCAS" =
    [SExpr (GCall "t.rootLock.Lock" []);
     SDefer (GCall "t.rootLock.Unlock" []);
     SIf [] (GBin "!=" (GVar "t.root") (GVar "prev")) [SReturn [GVar "false"]] [];
     SAssign [GVar "t.root"] "=" [GVar "next"];
     SIf [] (GBin "!=" (GVar "prev") GNil) [SAssign [GVar "prev.superseded"] "=" [GVar "true"]] [];
     SIf [] (GBin "&&" (GBin "!=" (GVar "prev") GNil) (GBin ">" (GVar "prev.refs") (GInt 2)))
       [SIf [] (GBin "||" (GBin "!=" (GVar "prev.chainedCollection") GNil) (GBin "!=" (GVar "prev.chainedRootNodeLoc") GNil))
          [SExpr (GCall "panic" [GCall "fmt.Sprintf" [GLit """chain already taken, coll: %v"""; GCall "t.Name" []]])] [];
        SAssign [GVar "prev.chainedCollection"] "=" [GVar "t"];
        SAssign [GVar "prev.chainedRootNodeLoc"] "=" [GVar "t.root"];
        SIncDec (GVar "t.root.refs") true] [];
     SReturn [GVar "true"]] /\
  body "Collection.rootDecRef" =
    [SExpr (GCall "t.rootLock.Lock" []);
     SExpr (GCall "freeNodeLock.Lock" []);
     SExpr (GCall "t.rootDecRefUnlocked" [GVar "r"]);
     SExpr (GCall "freeNodeLock.Unlock" []);
     SExpr (GCall "t.rootLock.Unlock" [])] /\
  body "Collection.closeCollection" =
    [SIf [] (GBin "==" (GVar "t") GNil) [SReturn []] [];
     SExpr (GCall "t.rootLock.Lock" []);
     SAssign [GVar "r"] ":=" [GVar "t.root"];
     SAssign [GVar "t.root"] "=" [GNil];
     SExpr (GCall "t.rootLock.Unlock" []);
     SIf [] (GBin "!=" (GVar "r") GNil) [SExpr (GCall "t.rootDecRef" [GVar "r"])] []].
Proof. exact DecProto.protocol_functions. Qed.
Print Assumptions c10_protocol_functions_are_source.

From GK Require Import DecPins.
(* a reader holds its version for the whole call (pin released by defer) *)
Theorem c10_readers_hold_their_pin_is_source :
  forallb pinned_by_defer
    ["Collection.GetItem"; "Collection.GetTotals"; "Collection.VisitItemsAscendEx"; "Collection.VisitItemsDescendEx";
     "Store.walk"; "Collection.MarshalJSON"] = true.
Proof. exact DecPins.readers_hold_their_pin. Qed.
Print Assumptions c10_readers_hold_their_pin_is_source.

(* a mutation pins by defer as well and releases exactly one more reference, after a successful rootCAS; a lost rootCAS
   only reports (after the first ten calls of either body, which hold every errors.New of its argument checks, the one
   errors.New left follows rootCAS) *)
Theorem c10_mutations_release_once_is_source :
  (forall f, In f ["Collection.SetItem"; "Collection.Delete"] ->
     In (SDefer (GCall "t.rootDecRef" [GVar "rnl"])) (body f) /\
     count_occ string_dec (calls 400 (body f)) "t.rootDecRef" = 2%nat /\
     List.last (calls 400 (body f)) "" = "t.rootDecRef" /\
     before "t.rootCAS" "errors.New" (skipn 10 (calls 400 (body f))) = true) /\
  List.filter (fun s => match s with SIf _ (GUn "!" (GCall "t.rootCAS" _)) _ _ => true | _ => false end)
         (body "Collection.SetItem" ++ body "Collection.Delete") =
  [SIf [] (GUn "!" (GCall "t.rootCAS" [GVar "rnl"; GVar "rnlNew"]))
     [SReturn [GCall "errors.New" [GLit """concurrent mutation attempted"""]]] [];
   SIf [] (GUn "!" (GCall "t.rootCAS" [GVar "rnl"; GVar "rnlNew"]))
     [SReturn [GVar "false"; GCall "errors.New" [GLit """concurrent mutation attempted"""]]] []].
Proof. exact DecPins.mutations_release_once. Qed.
Print Assumptions c10_mutations_release_once_is_source.

(* the reclaim marks a failed mutation left are cleared wherever they are: unmarkReclaimable walks the whole loaded tree
   (no early stop at an unmarked node), one lock section per node, released before it descends *)
From GK Require Import DecMarks.
Theorem c10_unmark_walks_the_whole_tree_is_source :
  body "Collection.unmarkReclaimable" =
    [SIf [] (GCall "nloc.isEmpty" []) [SReturn []] [];
     SAssign [GVar "n"] ":=" [GCall "nloc.Node" []];
     SIf [] (GBin "==" (GVar "n") GNil) [SReturn []] [];
     SExpr (GCall "t.rootLock.Lock" []);
     SIf [] (GBin "==" (GVar "n.next") (GVar "reclaimMark")) [SAssign [GVar "n.next"] "=" [GNil]] [];
     SExpr (GCall "t.rootLock.Unlock" []);
     SExpr (GCall "t.unmarkReclaimable" [GUn "&" (GVar "n.left"); GVar "reclaimMark"]);
     SExpr (GCall "t.unmarkReclaimable" [GUn "&" (GVar "n.right"); GVar "reclaimMark"])] /\
  body "Collection.markReclaimable" =
    [SExpr (GCall "t.rootLock.Lock" []);
     SDefer (GCall "t.rootLock.Unlock" []);
     SIf [] (GBin "||" (GBin "||" (GBin "==" (GVar "n") GNil) (GBin "!=" (GVar "n.next") GNil))
                       (GBin "==" (GVar "n") (GVar "reclaimMark")))
       [SReturn []] [];
     SAssign [GVar "n.next"] "=" [GVar "reclaimMark"]].
Proof. exact DecMarks.unmark_walks_the_whole_tree. Qed.
Print Assumptions c10_unmark_walks_the_whole_tree_is_source.

(* a handle that replaces an existing one shares its version record and the lock guarding it; every published map of
   collections is a fresh copy (a snapshot never shares the map the store goes on writing to) *)
From GK Require Import DecSetColl.
Theorem c10_set_collection_function_is_source :
  body "Store.SetCollection" =
    [SIf [] (GBin "==" (GVar "compare") GNil) [SAssign [GVar "compare"] "=" [GVar "bytes.Compare"]] [];
     SFor [] None []
       [SAssign [GVar "orig"] ":=" [GCall "s.getColl" []];
        SAssign [GVar "coll"] ":=" [GCall "copyColl" [GUn "*" (GCall "(*map[string]*Collection)" [GVar "orig"])]];
        SAssign [GVar "cnew"] ":=" [GCall "s.MakePrivateCollection" [GVar "compare"]];
        SAssign [GVar "cnew.name"] "=" [GVar "name"];
        SAssign [GVar "cold"] ":=" [GCall "[]" [GVar "coll"; GVar "name"]];
        SIf [] (GBin "!=" (GVar "cold") GNil)
          [SAssign [GVar "cnew.rootLock"] "=" [GVar "cold.rootLock"];
           SAssign [GVar "cnew.root"] "=" [GCall "cold.rootAddRef" []]] [];
        SAssign [GCall "[]" [GVar "coll"; GVar "name"]] "=" [GVar "cnew"];
        SIf [] (GCall "s.casColl" [GVar "orig"; GUn "&" (GVar "coll")])
          [SExpr (GCall "cold.closeCollection" []); SReturn [GVar "cnew"]] [];
        SExpr (GCall "cnew.closeCollection" [])]] /\
  body "copyColl" =
    [SAssign [GVar "res"] ":=" [GCall "make" [GOther "map[string]*Collection"]];
     SRange (GVar "name") (GVar "c") (GVar "orig")
       [SAssign [GCall "[]" [GVar "res"; GVar "name"]] "=" [GVar "c"]];
     SReturn [GVar "res"]].
Proof. exact DecSetColl.set_collection_function. Qed.
Print Assumptions c10_set_collection_function_is_source.
