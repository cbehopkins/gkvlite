(* C17 — behaviourally neutral store callbacks do not change any result. *)
From GK Require Import Base Treap Codec CodecProofs Neutral.

(* an ItemValWrite callback that writes the value in chunks of any size k >= 1 leaves the file exactly as
   the single write of the default implementation *)
Theorem c17_chunked_write_neutral : forall k f off v, (1 <= k)%nat -> 0 <= off <= blen f ->
  write_chunks f off (chunks k (length v) v) = write_at f off v.
Proof. exact Neutral.chunked_write_neutral. Qed.
Print Assumptions c17_chunked_write_neutral.

(* an ItemValRead callback that reads in chunks obtains exactly the bytes of the single read *)
Theorem c17_chunked_read_neutral : forall lens f off b, Forall (fun n => 0 <= n) lens ->
  read_at f off (zsum lens) = Some b -> read_chunks f off lens = Some b.
Proof. exact Neutral.read_chunks_whole. Qed.
Print Assumptions c17_chunked_read_neutral.

(* written in chunks of k, read back in chunks of k': the value *)
Theorem c17_chunked_roundtrip : forall k k' f off v, (1 <= k)%nat -> (1 <= k')%nat -> 0 <= off <= blen f ->
  read_chunks (write_chunks f off (chunks k (length v) v)) off (map blen (chunks k' (length v) v)) = Some v.
Proof. exact Neutral.chunked_read_write_neutral. Qed.
Print Assumptions c17_chunked_roundtrip.

(* BeforeItemWrite returning the item unchanged: the same record is written *)
Theorem c17_before_write_identity : forall it, enc_item (before_write_id it) = enc_item it.
Proof. exact Neutral.before_write_id_neutral. Qed.
Print Assumptions c17_before_write_identity.

(* ItemValLength = len(Val) is the value length the record header stores *)
Theorem c17_val_length_field : forall it, sub (enc_item_hdr it) 8 4 = be 4 (item_val_length it).
Proof. exact Neutral.item_val_length_field. Qed.
Print Assumptions c17_val_length_field.

(* About the Go source itself.  Generated.g_code is rewritten from the .go files by tools/gen on every run; the statements
   below are written by hand (Dec*.v, over the definitions of DecBase.v) and say what that code has at these points. *)
From GK Require Import GExpr Generated DecBase DecCallbacks.
From Coq Require Import String List.
Import ListNotations.

(* the callback wrappers: an installed callback is used verbatim with the wrapper's arguments; the defaults are one
   WriteAt of Item.Val, a fresh buffer filled by one ReadAt, len(Item.Val), a fresh Item; hooks only when installed *)
Theorem c17_callback_wrappers_are_source :
  body "Store.ItemValWrite" =
    [SIf [] (GBin "!=" (GVar "s.callbacks.ItemValWrite") GNil)
       [SReturn [GCall "s.callbacks.ItemValWrite" [GVar "c"; GVar "i"; GVar "w"; GVar "offset"]]] [];
     SAssign [GVar "_"; GVar "err"] ":=" [GCall "w.WriteAt" [GVar "i.Val"; GVar "offset"]];
     SReturn [GVar "err"]] /\
  body "Store.ItemValRead" =
    [SIf [] (GBin "!=" (GVar "s.callbacks.ItemValRead") GNil)
       [SReturn [GCall "s.callbacks.ItemValRead" [GVar "c"; GVar "i"; GVar "r"; GVar "offset"; GVar "valLength"]]] [];
     SAssign [GVar "i.Val"] "=" [GCall "make" [GOther "[]byte"; GVar "valLength"]];
     SAssign [GVar "_"; GVar "err"] ":=" [GCall "r.ReadAt" [GVar "i.Val"; GVar "offset"]];
     SReturn [GVar "err"]] /\
  body "Item.NumValBytes" =
    [SIf [] (GBin "!=" (GVar "c.store.callbacks.ItemValLength") GNil)
       [SReturn [GCall "c.store.callbacks.ItemValLength" [GVar "c"; GVar "i"]]] [];
     SReturn [GCall "len" [GVar "i.Val"]]] /\
  body "Store.ItemAlloc" =
    [SIf [] (GBin "!=" (GVar "s.callbacks.ItemAlloc") GNil)
       [SReturn [GCall "s.callbacks.ItemAlloc" [GVar "c"; GVar "keyLength"]]] [];
     SReturn [GUn "&" (GOther "Item{Key: make([]byte, keyLength)}")]] /\
  body "Store.ItemAddRef" =
    [SIf [] (GBin "!=" (GVar "s.callbacks.ItemAddRef") GNil) [SExpr (GCall "s.callbacks.ItemAddRef" [GVar "c"; GVar "i"])] []] /\
  body "Store.ItemDecRef" =
    [SIf [] (GBin "!=" (GVar "s.callbacks.ItemDecRef") GNil) [SExpr (GCall "s.callbacks.ItemDecRef" [GVar "c"; GVar "i"])] []].
Proof. exact DecCallbacks.callback_wrappers. Qed.
Print Assumptions c17_callback_wrappers_are_source.

Theorem c17_item_hooks_guarded_are_source :
  In (GBin "!=" (GVar "c.store.callbacks.BeforeItemWrite") GNil) (conds 400 (body "itemLoc.write")) /\
  In (GBin "!=" (GVar "c.store.callbacks.AfterItemRead") GNil) (conds 400 (body "itemLoc.read")) /\
  In ("c.store.callbacks.BeforeItemWrite", [GVar "c"; GVar "iItem"]) (calls_a 400 (body "itemLoc.write")) /\
  In ("c.store.callbacks.AfterItemRead", [GVar "c"; GVar "i"]) (calls_a 400 (body "itemLoc.read")).
Proof. exact DecCallbacks.item_hooks_guarded. Qed.
Print Assumptions c17_item_hooks_guarded_are_source.

(* custom item allocation may recycle an item's buffers at count zero: the out-of-order guard of ascending visits compares
   with a COPY of the previously delivered key, not with the released item (repaired defect 2651ef4) *)
From GK Require Import DecRecycle.
Theorem c17_visit_guard_keeps_a_copy_is_source :
  body "<lit:Collection.VisitItemsAscendEx#1>" =
    [SIf [] (GBin "&&" (GVar "havePrevVisitKey")
                (GBin ">" (GCall "t.compare" [GVar "prevVisitKey"; GVar "i.Key"]) (GInt 0)))
       [SAssign [GVar "errCheckedVisitor"] "="
          [GCall "fmt.Errorf"
             [GBin "+" (GLit """corrupted / out-of-order index""")
                (GLit """, key: %s vs %s, coll: %p, collName: %s, store: %p, storeFile: %v""");
              GCall "string" [GVar "prevVisitKey"]; GCall "string" [GVar "i.Key"]; GVar "t";
              GVar "t.name"; GVar "t.store"; GVar "t.store.file"]];
        SReturn [GVar "false"]] [];
     SAssign [GVar "prevVisitKey"] "="
       [GCall "append" [GCall "[:]" [GVar "prevVisitKey"; GNil; GInt 0]; GVar "i.Key"]];
     SAssign [GVar "havePrevVisitKey"] "=" [GVar "true"];
     SReturn [GCall "visitor" [GVar "i"; GVar "depth"]]].
Proof. exact DecRecycle.visit_guard_keeps_a_copy. Qed.
Print Assumptions c17_visit_guard_keeps_a_copy_is_source.
