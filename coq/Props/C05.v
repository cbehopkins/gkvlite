(* C05 — concurrent readers each see one consistent version beside writer and flusher.
   PARTIAL (see DESIGN.md): the theorems quantify over every interleaving of the ATOMIC protocol
   actions of Proto.v (one action = one critical section or one lock-free phase of the Go code);
   Go-memory-model effects inside a phase are outside the model. *)
From Coq Require Import String.
From stdpp Require Import gmap.
From GK Require Import Proto ProtoProofs Generated CallGraph.

(* a reader that pinned a version (rootAddRef) can rely on it until it unpins: the version stays live,
   its cells are never freed or recycled, nothing in its tree is removed or replaced (the cached tree only gains cells,
   by lazy loads of fresh or recycled ones) -- so a whole visit reads ONE version *)
Theorem c05_pinned_version_live : forall s, reachable s -> forall v p,
  pins s !! v = Some (S p) -> is_Some (vers s !! v).
Proof. exact ProtoProofs.pinned_live. Qed.
Print Assumptions c05_pinned_version_live.

Theorem c05_reader_cells_safe : forall s, reachable s -> forall v x n,
  vers s !! v = Some x -> n ∈ v_tree x -> exists k, marks s !! n = Some k /\ k <> F.
Proof. exact ProtoProofs.proto_safe. Qed.
Print Assumptions c05_reader_cells_safe.

Theorem c05_version_immutable : forall s s', reachable s -> step s s' -> forall v x x',
  vers s !! v = Some x -> vers s' !! v = Some x' ->
  v_tree x ⊆ v_tree x' /\ (forall n, n ∈ v_tree x' -> n ∉ v_tree x -> marks s' !! n = Some U /\ allocatable s n).
Proof. exact ProtoProofs.tree_stable. Qed.
Print Assumptions c05_version_immutable.

(* no lost update / no protocol panic: with one mutator per lineage the compare-and-swap of a mutation in
   flight always finds the handle still pointing at the version it pinned, that version is not yet superseded
   and its chain is free ("chain already taken" and "concurrent mutation attempted" are unreachable) *)
Theorem c05_cas_enabled : forall s, reachable s -> forall l m, muts s !! l = Some m ->
  exists hd, handles s !! m_handle m = Some hd /\ h_root hd = Some (m_ver m) /\ h_lin hd = l /\ h_ro hd = false.
Proof. exact ProtoProofs.cas_enabled. Qed.
Print Assumptions c05_cas_enabled.

Theorem c05_chain_free_at_cas : forall s, reachable s -> forall l m x hd,
  muts s !! l = Some m -> vers s !! m_ver m = Some x -> handles s !! m_handle m = Some hd ->
  h_root hd = Some (m_ver m) -> v_super x = false /\ v_chain x = None.
Proof. exact ProtoProofs.chain_free_at_cas. Qed.
Print Assumptions c05_chain_free_at_cas.

(* no deadlock on gkvlite's own locks: over the call graph regenerated from the source, no function
   performs file I/O or calls a user-supplied function (visitor, comparator, block mangler) while holding a
   lock, directly or through anything it calls while holding it *)
Theorem c05_no_callout_under_lock : forall f, In f g_funcs ->
  g_io_under f = false /\ g_user_under f = false /\
  forall c w h, In c (g_under f) -> reaches c w -> lookup_fn w = Some h ->
                g_reads h = false /\ g_writes h = false /\ g_user h = false.
Proof. exact CallGraph.no_callout_under_lock. Qed.
Print Assumptions c05_no_callout_under_lock.

(* the locks are always taken in one global order (over the regenerated call graph): B is acquired while A is held,
   directly or below a callee, only if A comes before B in lock_rank -- so the relation is acyclic *)
Theorem c05_lock_order_acyclic : forall a b, In (a, b) g_lock_order ->
  exists i j, index_of a lock_rank = Some i /\ index_of b lock_rank = Some j /\ (i < j)%nat.
Proof. exact CallGraph.lock_order_acyclic. Qed.
Print Assumptions c05_lock_order_acyclic.

(* About the Go source itself.  Generated.g_code is rewritten from the .go files by tools/gen on every run; the statements
   below are written by hand (Dec*.v, over the definitions of DecBase.v) and say what that code has at these points: the
   decisions the model takes there are the evaluations of the conditions of the Go source, for all values of their
   variables. *)
From GK Require Import GExpr Generated DecBase DecProto DecFlush.
From Coq Require Import String.

(* rootCAS chains the new version behind the previous one iff the previous one has more than two references
   (Proto.v: chained := bool_decide (2 < v_refs x)) *)
Theorem c05_chain_rule_is_source :
  exists c, decisions "Collection.rootCAS" "prev.refs" = [c] /\
    forall refs : Z, gtrue (upd (upd env0 "prev" 1%Z) "prev.refs" refs) c = Some (Z.ltb 2 refs).
Proof. exact DecProto.rootcas_chain_decision. Qed.
Print Assumptions c05_chain_rule_is_source.

(* a reader's pin is one increment, its release one decrement that frees only the last reference *)
Theorem c05_decref_is_source :
  forall r : Z,
  exists rest, body "Collection.rootDecRefUnlocked" = SIncDec (GVar "r.refs") false :: SIf [] (GBin ">" (GVar "r.refs") (GInt 0)) [SReturn []] [] :: rest /\
  (Z.lt 1 r -> gexec 10 (upd env0 "r.refs" r) (firstn 2 (body "Collection.rootDecRefUnlocked")) = RRet []) /\
  (r = 1%Z -> exists rho, gexec 10 (upd env0 "r.refs" r) (firstn 2 (body "Collection.rootDecRefUnlocked")) = RFall rho /\ rho "r.refs" = Some 0%Z).
Proof. exact DecProto.decref_decision. Qed.
Print Assumptions c05_decref_is_source.

Theorem c05_addref_is_source :
  exists pre post, body "Collection.rootAddRef" = pre ++ SIncDec (GVar "t.root.refs") true :: post /\
                   Forall (fun s => match s with SIncDec _ _ | SAssign _ _ _ => False | _ => True end) (pre ++ post).
Proof. exact DecProto.addref_is_increment. Qed.
Print Assumptions c05_addref_is_source.

(* Flush pins the collections in NAME order: both of its loops range over the sorted name list *)
Theorem c05_flush_pins_in_name_order_is_source :
  In (SAssign [GVar "cnames"] ":=" [GCall "collNames" [GVar "coll"]]) (body "Store.Flush") /\
  (exists b1 b2, ranges (body "Store.Flush") = [(GVar "cnames", b1); (GVar "cnames", b2)] /\
                 In "c.rootAddRef" (calls 50 b1) /\ In "coll[name].write" (calls 50 b2)) /\
  (exists pre, body "collNames" = pre ++ [SExpr (GCall "sort.Strings" [GVar "res"]); SReturn [GVar "res"]]).
Proof. exact DecFlush.flush_pins_in_name_order. Qed.
Print Assumptions c05_flush_pins_in_name_order_is_source.

(* the version protocol in the source, statement by statement (the atomic actions of Proto.v and the locks they run under) *)
Theorem c05_protocol_functions_are_source :
  body "Collection.rootCAS" =
    [SExpr (GCall "t.rootLock.Lock" []);
     SDefer (GCall "t.rootLock.Unlock" []);
     SIf [] (GBin "!=" (GVar "t.root") (GVar "prev")) [SReturn [GVar "false"]] [];
     SAssign [GVar "t.root"] "=" [GVar "next"];
     SIf [] (GBin "!=" (GVar "prev") GNil) [SAssign [GVar "prev.superseded"] "=" [GVar "true"]] [];
     SIf [] (GBin "&&" (GBin "!=" (GVar "prev") GNil) (GBin ">" (GVar "prev.refs") (GInt 2)))
       [SIf [] (GBin "||" (GBin "!=" (GVar "prev.chainedCollection") GNil) (GBin "!=" (GVar "prev.chainedRootNodeLoc") GNil))
          [SExpr (GCall "panic" [GCall "fmt.Sprintf" [GLit """chain already taken, coll: %v"""; GCall "t.Name" []]])] [];
        SAssign [GVar "prev.chainedCollection"] "=" [GVar "t"];
        SAssign [GVar "prev.chainedRootNodeLoc"] "=" [GVar "t.root"];
        SIncDec (GVar "t.root.refs") true] [];
     SReturn [GVar "true"]] /\
  body "Collection.rootDecRef" =
    [SExpr (GCall "t.rootLock.Lock" []);
     SExpr (GCall "freeNodeLock.Lock" []);
     SExpr (GCall "t.rootDecRefUnlocked" [GVar "r"]);
     SExpr (GCall "freeNodeLock.Unlock" []);
     SExpr (GCall "t.rootLock.Unlock" [])] /\
  body "Collection.closeCollection" =
    [SIf [] (GBin "==" (GVar "t") GNil) [SReturn []] [];
     SExpr (GCall "t.rootLock.Lock" []);
     SAssign [GVar "r"] ":=" [GVar "t.root"];
     SAssign [GVar "t.root"] "=" [GNil];
     SExpr (GCall "t.rootLock.Unlock" []);
     SIf [] (GBin "!=" (GVar "r") GNil) [SExpr (GCall "t.rootDecRef" [GVar "r"])] []].
Proof. exact DecProto.protocol_functions. Qed.
Print Assumptions c05_protocol_functions_are_source.

From GK Require Import DecPins.
(* a reader holds its version for the whole call: the pin is released by defer *)
Theorem c05_readers_hold_their_pin_is_source :
  forallb pinned_by_defer
    ["Collection.GetItem"; "Collection.GetTotals"; "Collection.VisitItemsAscendEx"; "Collection.VisitItemsDescendEx";
     "Store.walk"; "Collection.MarshalJSON"] = true.
Proof. exact DecPins.readers_hold_their_pin. Qed.
Print Assumptions c05_readers_hold_their_pin_is_source.
