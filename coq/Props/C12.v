(* C12 — creating, replacing and removing collections never loses or leaks items.
   Laws of the specification StoreSpec.sstep, which Store.run refines (C01). *)
From GK Require Import Base Order Treap TreapSpec Store StoreSpec StoreRefine.

Theorem c12_new_empty : forall s n id s' r, cget (ss_cur s) n = None ->
  sstep s (OColl n id) = (s', r) -> cget (ss_cur s') n = Some (mkSColl id []).
Proof. exact StoreRefine.c12_new_empty. Qed.
Print Assumptions c12_new_empty.

Theorem c12_existing_keeps_items : forall s n id c s' r, cget (ss_cur s) n = Some c ->
  sstep s (OColl n id) = (s', r) -> cget (ss_cur s') n = Some (mkSColl id (sc_items c)).
Proof. exact StoreRefine.c12_existing_keeps_items. Qed.
Print Assumptions c12_existing_keeps_items.

Theorem c12_remove_then_create_empty : forall s n id s1 r1 s2 r2, swf s ->
  sstep s (ORmColl n) = (s1, r1) -> sstep s1 (OColl n id) = (s2, r2) ->
  cget (ss_cur s2) n = Some (mkSColl id []).
Proof. exact StoreRefine.c12_remove_then_create_empty. Qed.
Print Assumptions c12_remove_then_create_empty.

Theorem c12_names_sorted : forall s o s' r, swf s -> sstep s o = (s', r) -> swf s'.
Proof. exact StoreRefine.c12_names_sorted. Qed.
Print Assumptions c12_names_sorted.

Theorem c12_names_strict : forall s s' l, swf s -> sstep s ONames = (s', RNames l) ->
  keys_sorted l /\ NoDup l /\ forall n, In n l <-> cget (ss_cur s) n <> None.
Proof. exact StoreRefine.c12_names_strict. Qed.
Print Assumptions c12_names_strict.

Theorem c12_others_untouched : forall s o n n' s' r, op_name o = Some n -> cmp_bytes n' n <> Eq ->
  sstep s o = (s', r) -> cget (ss_cur s') n' = cget (ss_cur s) n'.
Proof. exact StoreRefine.c12_others_untouched. Qed.
Print Assumptions c12_others_untouched.

Theorem c12_durable_only_at_flush : forall s o s' r, sstep s o = (s', r) ->
  o <> OFlush -> o <> ORevert -> ss_flushed s' = ss_flushed s.
Proof. exact StoreRefine.c12_durable_only_at_flush. Qed.
Print Assumptions c12_durable_only_at_flush.

Theorem c12_reopen_shows_last_flush : forall s s' r, ss_file s = true -> sstep s OReopen = (s', r) ->
  map fst (ss_cur s') = map fst (hd [] (ss_flushed s)) /\
  forall n, option_map sc_items (cget (ss_cur s') n) = option_map sc_items (cget (hd [] (ss_flushed s)) n).
Proof. exact StoreRefine.c12_reopen_shows_last_flush. Qed.
Print Assumptions c12_reopen_shows_last_flush.

(* and the treap store refines that specification over whole histories *)
Theorem c12_history : forall file ops, ops_ok [] ops ->
  map erase (run (init file) ops) = map erase (srun (sinit file) ops).
Proof. exact StoreRefine.c01_refines_sorted_map. Qed.
Print Assumptions c12_history.

(* About the Go source itself.  Generated.g_code is rewritten from the .go files by tools/gen on every run; the statements
   below are written by hand (Dec*.v, over the definitions of DecBase.v) and say what that code has at these points: the
   decisions the model takes there are the evaluations of the conditions of the Go source, for all values of their
   variables. *)
From GK Require Import GExpr Generated DecBase DecCompare.
From Coq Require Import String.

(* SetCollection: a nil comparator means bytes.Compare *)
Theorem c12_nil_compare_is_default_is_source :
  match body "Store.SetCollection" with
  | SIf [] (GBin "==" (GVar "compare") GNil) [SAssign [GVar "compare"] "=" [GVar "bytes.Compare"]] [] :: _ => True
  | _ => False
  end.
Proof. exact DecCompare.nil_compare_is_default. Qed.
Print Assumptions c12_nil_compare_is_default_is_source.

(* a handle that replaces an existing one shares its version record and the lock guarding it; every published map of
   collections is a fresh copy (a snapshot never shares the map the store goes on writing to) *)
From GK Require Import DecSetColl.
Theorem c12_set_collection_function_is_source :
  body "Store.SetCollection" =
    [SIf [] (GBin "==" (GVar "compare") GNil) [SAssign [GVar "compare"] "=" [GVar "bytes.Compare"]] [];
     SFor [] None []
       [SAssign [GVar "orig"] ":=" [GCall "s.getColl" []];
        SAssign [GVar "coll"] ":=" [GCall "copyColl" [GUn "*" (GCall "(*map[string]*Collection)" [GVar "orig"])]];
        SAssign [GVar "cnew"] ":=" [GCall "s.MakePrivateCollection" [GVar "compare"]];
        SAssign [GVar "cnew.name"] "=" [GVar "name"];
        SAssign [GVar "cold"] ":=" [GCall "[]" [GVar "coll"; GVar "name"]];
        SIf [] (GBin "!=" (GVar "cold") GNil)
          [SAssign [GVar "cnew.rootLock"] "=" [GVar "cold.rootLock"];
           SAssign [GVar "cnew.root"] "=" [GCall "cold.rootAddRef" []]] [];
        SAssign [GCall "[]" [GVar "coll"; GVar "name"]] "=" [GVar "cnew"];
        SIf [] (GCall "s.casColl" [GVar "orig"; GUn "&" (GVar "coll")])
          [SExpr (GCall "cold.closeCollection" []); SReturn [GVar "cnew"]] [];
        SExpr (GCall "cnew.closeCollection" [])]] /\
  body "copyColl" =
    [SAssign [GVar "res"] ":=" [GCall "make" [GOther "map[string]*Collection"]];
     SRange (GVar "name") (GVar "c") (GVar "orig")
       [SAssign [GCall "[]" [GVar "res"; GVar "name"]] "=" [GVar "c"]];
     SReturn [GVar "res"]].
Proof. exact DecSetColl.set_collection_function. Qed.
Print Assumptions c12_set_collection_function_is_source.
