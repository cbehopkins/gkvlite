(* C02 — a successful Flush makes the entire store state durable. *)
From GK Require Import Base Treap TreapSpec Store StoreSpec StoreRefine Codec CodecProofs Disk DiskProofs DStore DStoreRefine.

(* Byte-level model of Flush (write_items, write_nodes per collection in name order, then the root
   record): on any store state whose persisted part is represented by the file (coll_ok) and in
   which no tree shares a node record, when the sizes fit the format and the new file ends with
   the root record (blen f' = size', which c02_flush_no_junk gives when the old file ended at the
   old size), the INDEPENDENT decoder applied to the new file returns exactly the flushed
   collections (same names, same items with values and priorities); nothing below the old size
   changed; and the new state is again coll_ok and without sharing (so this iterates over flush
   after flush, and over re-opens since a decoded store is represented by its file). *)
Theorem c02_flush_then_decode : forall f size cs f' size' cs',
  Forall (coll_ok f size) cs -> 0 <= size <= blen f ->
  flush_bytes f size cs = (f', size', cs') ->
  size' < two63 -> roots_len + blen (enc_json (root_map cs')) < two32 -> blen f' = size' ->
  Forall (fun nc => NoDup (node_offs (c_tree (snd nc)))) cs ->
  decode_store f' = OpOk size' (tmap cs') /\
  contents (tmap cs') = map (fun nc => (fst nc, elems (c_tree (snd nc)))) cs /\
  agree f f' size /\ Forall (coll_ok f' size') cs' /\
  Forall (fun nc => NoDup (node_offs (c_tree (snd nc)))) cs'.
Proof. exact DiskProofs.flush_decodes_nodup. Qed.
Print Assumptions c02_flush_then_decode.

(* the flush leaves no bytes after its root record when there were none before *)
Theorem c02_flush_no_junk : forall f size cs f' size' cs',
  Forall (coll_ok f size) cs -> 0 <= size <= blen f -> flush_bytes f size cs = (f', size', cs') ->
  size' < two63 -> blen f = size -> blen f' = size'.
Proof. exact DiskProofs.flush_no_junk. Qed.
Print Assumptions c02_flush_no_junk.

(* changes made after the Flush are never visible after re-opening: whatever is appended later that does
   not form a complete valid root record leaves the decoded state unchanged (see also C03) *)
Theorem c02_later_bytes_invisible : forall f0 f' e0 m0 cs,
  scan f0 (blen f0) = ScanFound e0 m0 -> agree f0 f' e0 -> e0 <= blen f' ->
  (forall e', e0 < e' <= blen f' -> root_at f' e' = None) ->
  load_all f0 m0 e0 = Some cs ->
  Forall (fun nt => rep f0 (snd nt) /\ below (snd nt) e0 /\ (size (snd nt) <= S (length f'))%nat) cs ->
  decode_store f0 = OpOk e0 cs /\ decode_store f' = OpOk e0 cs.
Proof. exact DiskProofs.crash_decode_store. Qed.
Print Assumptions c02_later_bytes_invisible.

(* what is loaded back is the persisted tree itself: same records, items and stored aggregates *)
Theorem c02_load_is_tree : forall f t b depth budget,
  rep f t -> persisted t -> below t b -> (size t <= budget)%nat -> (height t <= depth)%nat ->
  load depth f (root_loc t) b budget = Some (t, (budget - size t)%nat).
Proof. exact DiskProofs.load_rep. Qed.
Print Assumptions c02_load_is_tree.

(* OVER WHOLE HISTORIES.  DStore.drun is the file-backed store on bytes: Flush appends item, node and root records
   (flush_bytes), re-opening DECODES the file (decode_store), FlushRevert scans back and truncates (revert_bytes);
   Store.run keeps the durable state as an abstract stack of flushed states.  For every history whose side conditions
   hold (history_ok: a boolean evaluated along the byte-level run -- ASCII names, items within the format's ranges,
   sizes within 2^63 / 2^32, and no complete self-consistent root record inside the bytes a Flush appends) every call
   returns exactly the same answer in both.  So after any sequence of mutations, flushes, re-opens and reverts, opening
   the file yields the state of the most recent (not reverted) Flush, and changes made after it are never visible.
   The file DStore predicts is compared byte for byte with the implementation's file on every run. *)
Theorem c02_history : forall ops, ops_ok [] ops -> history_ok ops -> drun dinit ops = run (init true) ops.
Proof. exact DStoreRefine.dstore_refines_store_exact. Qed.
Print Assumptions c02_history.

(* ... and that store is a family of sorted maps (C01) *)
Theorem c02_history_sorted_map : forall ops, ops_ok [] ops -> history_ok ops ->
  map oerase (drun dinit ops) = map oerase (srun (sinit true) ops).
Proof. exact DStoreRefine.dstore_refines_sorted_map. Qed.
Print Assumptions c02_history_sorted_map.

(* the side conditions are satisfiable: a 17-step history with two collections, flushes, a re-open and two reverts *)
Theorem c02_history_nonvacuous : ops_ok [] ex_history /\ history_ok ex_history.
Proof. exact DStoreRefine.ex_history_ok. Qed.
Print Assumptions c02_history_nonvacuous.

(* About the Go source itself.  Generated.g_code is rewritten from the .go files by tools/gen on every run; the statements
   below are written by hand (Dec*.v, over the definitions of DecBase.v) and say what that code has at these points: the
   decisions the model takes there are the evaluations of the conditions of the Go source, for all values of their
   variables. *)
From GK Require Import GExpr Generated DecBase DecWrite DecFlush.
From Coq Require Import String.

(* Flush writes only what is not yet persisted (Disk.write_items / write_nodes skip persisted nodes and items) *)
Theorem c02_write_skips_persisted_is_source :
  exists c1 c2, decisions "Collection.writeItems" "nloc" = [c1] /\ decisions "Collection.writeNodes" "nloc" = [c2] /\
    forall isnil persisted : bool,
      let rho := upd (upd env0 "nloc" (b2z (negb isnil))) "nloc.Loc().isEmpty()" (b2z (negb persisted)) in
      gtrue rho c1 = Some (isnil || persisted) /\ gtrue rho c2 = Some (isnil || persisted).
Proof. exact DecWrite.write_skips_persisted. Qed.
Print Assumptions c02_write_skips_persisted_is_source.

Theorem c02_item_written_once_is_source :
  exists c, hd_error (conds 400 (body "itemLoc.write")) = Some c /\
    forall empty : bool, gtrue (upd env0 "iloc.Loc().isEmpty()" (b2z empty)) c = Some empty.
Proof. exact DecWrite.item_written_once. Qed.
Print Assumptions c02_item_written_once_is_source.

Theorem c02_node_written_once_is_source :
  exists c, hd_error (conds 400 (body "nodeLoc.write")) = Some c /\
    forall notnil empty : bool, gtrue (upd (upd env0 "nloc" (b2z notnil)) "loc.isEmpty()" (b2z empty)) c = Some (notnil && empty).
Proof. exact DecWrite.node_written_once. Qed.
Print Assumptions c02_node_written_once_is_source.

(* Flush has no way out other than its two guards and a write error: it always ends by writing the root record, for
   the versions it pinned *)
Theorem c02_flush_always_writes_roots_is_source :
  conds 400 (body "Store.Flush") = [GVar "s.readOnly"; GBin "==" (GVar "s.file") GNil; GBin "!=" (GVar "err") GNil] /\
  last (body "Store.Flush") (SOther "") = SReturn [GCall "s.writeRoots" [GVar "rnls"]] /\
  hd (SOther "") (body "Store.writeRoots") = SAssign [GVar "sJSON"; GVar "err"] ":=" [GCall "json.Marshal" [GVar "rnls"]] /\
  before "c.rootAddRef" "coll[name].write" (call_list "Store.Flush") = true /\
  before "coll[name].write" "s.writeRoots" (call_list "Store.Flush") = true.
Proof. exact DecFlush.flush_always_writes_roots. Qed.
Print Assumptions c02_flush_always_writes_roots_is_source.

Theorem c02_write_roots_order_is_source :
  Forall (fun c => c = GBin "!=" (GVar "err") GNil) (conds 400 (body "Store.writeRoots")) /\
  before "s.file.WriteAt" "atomic.StoreInt64" (call_list "Store.writeRoots") = true.
Proof. exact DecFlush.write_roots_order. Qed.
Print Assumptions c02_write_roots_order_is_source.

From GK Require Import DecSites.

Theorem c02_size_update_sites_are_source :
  sites "atomic.StoreInt64" = ["Store.readRoots"; "Store.scanBackwardsForMagicEnd"; "Store.setSize"; "Store.writeRoots"; "itemLoc.write"] /\
  sites "atomic.AddInt64" = ["Store.FlushRevert"; "Store.readRootsScan"; "Store.scanBackwardsForMagicEnd"] /\
  sites "setSize" = ["nodeLoc.write"].
Proof. exact DecSites.size_update_sites. Qed.
Print Assumptions c02_size_update_sites_are_source.
