(* C15 — item reference counting via callbacks is balanced and never premature.
   Refcount.v: one event per place where the Go code touches an item reference. *)
From stdpp Require Import gmap.
From GK Require Import Refcount.

(* the count of every item equals the number of live nodes caching it plus the references handed
   to the caller and not yet returned *)
Theorem c15_count_is_owners : forall s, reachable s -> forall i,
  (cnt s i = Z.of_nat (nown (owner s) i) + Z.of_nat (out s i))%Z.
Proof. exact Refcount.count_is_owners. Qed.
Print Assumptions c15_count_is_owners.

Theorem c15_never_negative : forall s, reachable s -> forall i, (0 <= cnt s i)%Z.
Proof. exact Refcount.never_negative. Qed.
Print Assumptions c15_never_negative.

Theorem c15_reachable_positive : forall s n i, reachable s -> owner s !! n = Some i -> (1 <= cnt s i)%Z.
Proof. exact Refcount.reachable_positive. Qed.
Print Assumptions c15_reachable_positive.

Theorem c15_handed_positive : forall s i, reachable s -> (out s i > 0)%nat -> (1 <= cnt s i)%Z.
Proof. exact Refcount.handed_positive. Qed.
Print Assumptions c15_handed_positive.

(* once every node is gone (store and snapshots closed) and the caller returned what it was handed, every count is 0 *)
Theorem c15_all_released : forall s, reachable s -> owner s = ∅ -> (forall i, out s i = 0%nat) ->
  forall i, cnt s i = 0%Z.
Proof. exact Refcount.all_released. Qed.
Print Assumptions c15_all_released.

(* the defect repaired in the code (eviction inside visits without ItemDecRef) breaks exactly this *)
Theorem c15_evict_without_release_refuted :
  ~ (forall s, reachable' s -> owner s = ∅ -> (forall i, out s i = 0%nat) -> forall i, cnt s i = 0%Z).
Proof. exact Refcount.all_released_refuted. Qed.
Print Assumptions c15_evict_without_release_refuted.

(* About the Go source itself.  Generated.g_code is rewritten from the .go files by tools/gen on every run; the statements
   below are written by hand (Dec*.v, over the definitions of DecBase.v) and say what that code has at these points. *)
From GK Require Import GExpr Generated DecBase DecRefs DecSnapshot.
From Coq Require Import String List.
Import ListNotations.

(* every place where the code takes or gives back an item reference (the events of Refcount.v) *)
Theorem c15_reference_sites_are_source :
  (* Exist gives back the reference GetItem took *)
  body "Collection.Exist" =
    [SAssign [GVar "val"; GVar "_"] ":=" [GCall "t.GetItem" [GVar "key"; GVar "false"]];
     SIf [] (GBin "!=" (GVar "val") GNil)
       [SExpr (GCall "t.store.ItemDecRef" [GVar "t"; GVar "val"]); SReturn [GVar "true"]] [];
     SReturn [GVar "false"]] /\
  (* Len and CopyTo give back the reference MinItem took, CopyTo once per collection (inside its loop) *)
  In (SDefer (GCall "t.store.ItemDecRef" [GVar "t"; GVar "si"])) (body "Collection.Len") /\
  In (SDefer (GCall "s.ItemDecRef" [GVar "srcColl"; GVar "minItem"]))
     (match nth_error (body "Store.CopyTo") 4 with Some (SRange _ _ _ b) => b | _ => [] end) /\
  (* GetItem takes exactly one reference for the caller, as its last call; SetItem one for the tree, before union *)
  count_occ string_dec (call_list "Collection.GetItem") "t.store.ItemAddRef" = 1%nat /\
  last (call_list "Collection.GetItem") "" = "t.store.ItemAddRef" /\
  count_occ string_dec (call_list "Collection.SetItem") "t.store.ItemAddRef" = 1%nat /\
  before "t.store.ItemAddRef" "t.store.union" (call_list "Collection.SetItem") = true /\
  (* a freed node releases its item; an item evicted during a visit is released *)
  In "t.store.ItemDecRef" (call_list "Collection.freeNodeUnlocked") /\
  existsb (has_sub "o.ItemDecRef(t, i)") (call_list "Store.visitNodes") = true.
Proof. exact DecRefs.reference_sites. Qed.
Print Assumptions c15_reference_sites_are_source.

Theorem c15_snapshot_function_is_source :
  body "Store.Snapshot" =
    [SAssign [GVar "coll"] ":=" [GCall "copyColl" [GUn "*" (GCall "s.getColl" [])]];
     SAssign [GVar "res"] ":="
       [GUn "&" (GOther "Store{  coll:  &coll,  file:  s.file,  size:  atomic.LoadInt64(&s.size),  readOnly: true,  callbacks: s.callbacks, }")];
     SRange (GVar "_") (GVar "name") (GCall "collNames" [GVar "coll"])
       [SAssign [GVar "collOrig"] ":=" [GCall "[]" [GVar "coll"; GVar "name"]];
        SAssign [GCall "[]" [GVar "coll"; GVar "name"]] "="
          [GUn "&" (GOther "Collection{  store:  res,  compare: collOrig.compare,  rootLock: collOrig.rootLock,  root:  collOrig.rootAddRef(), }")]];
     SReturn [GVar "res"]].
Proof. exact DecSnapshot.snapshot_function. Qed.
Print Assumptions c15_snapshot_function_is_source.

(* no use after release: visitNodes holds a reference of its own on the item from before the visitor is called until after
   the last use of the item's key (a visitor may run visits that drop the node's reference); repaired defect 367e600 *)
From GK Require Import DecRecycle.
Theorem c15_visit_holds_item_while_used_is_source :
  call_list "Store.visitNodes" =
    ["n.read"; "n.isEmpty";
     "func(evictNode *node) {  if i := evictNode.Evict(); i != nil {   o.ItemDecRef(t, i)  } }";
     "nItemLoc.read"; "panic"; "fmt.Sprintf"; "choiceFunc"; "t.compare";
     "o.visitNodes"; "n.read"; "nItemLoc.read"; "o.ItemAddRef"; "visitor";
     "o.ItemDecRef"; "n.read"; "choiceFunc"; "t.compare"; "o.ItemDecRef";
     "o.visitNodes"] /\
  count_occ string_dec (call_list "Store.visitNodes") "o.ItemAddRef" = 1%nat.
Proof. exact DecRecycle.visit_holds_item_while_used. Qed.
Print Assumptions c15_visit_holds_item_while_used_is_source.

(* the item a visit hands to its visitor (repaired defect 367e600): with the visit's own reference (hand-out ... give-back
   around the visitor) no sequence of other events -- evictions by nested visits, freed nodes, reloads, other callers
   taking and returning references to other items --
   brings its count to zero; as found, one eviction of its node was enough *)
From GK Require Import RefcountVisit.
Theorem c15_visitor_item_stays_positive : forall s n i s1,
  reachable s -> owner s !! n = Some i -> step s (EvHandOut n) = Some s1 ->
  forall es s2, run s1 es = Some s2 -> Forall (not_giveback i) es -> (out s2 i > 0)%nat /\ (1 <= cnt s2 i)%Z.
Proof. exact RefcountVisit.held_item_stays_positive. Qed.
Print Assumptions c15_visitor_item_stays_positive.

Theorem c15_visitor_item_without_reference_refuted :
  exists s n i s', reachable s /\ owner s !! n = Some i /\ cnt s i = 1%Z /\ step s (EvEvict n) = Some s' /\ cnt s' i = 0%Z.
Proof. exact RefcountVisit.unheld_item_released_under_visitor. Qed.
Print Assumptions c15_visitor_item_without_reference_refuted.

(* the known finding copyto-destination-uncounted, formally: if a node may come to own an item without the counter moving
   (the destination store of CopyTo has no callbacks), "every item reachable from an open collection has a positive
   count" fails -- load, share, let the source's visit leave its node *)
Theorem c15_copyto_destination_uncounted_refuted :
  ~ (forall s n i, reachable'' s -> owner s !! n = Some i -> (1 <= cnt s i)%Z).
Proof. exact RefcountVisit.copyto_uncounted_refuted. Qed.
Print Assumptions c15_copyto_destination_uncounted_refuted.
