(* C03 — a crash at any point leaves the last completed Flush recoverable, atomically. *)
From GK Require Import Base Treap TreapSpec Store Codec CodecProofs Disk DiskProofs.

(* The backward scan finds the greatest valid root end at or below its start, for every file. *)
Theorem c03_scan_finds_last : forall f size e m, scan f size = ScanFound e m ->
  e <= size /\ roots_len < e /\ root_at f e = Some m /\ (forall e', e < e' <= size -> root_at f e' = None).
Proof. exact DiskProofs.scan_found. Qed.
Print Assumptions c03_scan_finds_last.

Theorem c03_scan_complete : forall f size e m, root_at f e = Some m -> e <= size ->
  (forall e', e < e' <= size -> root_at f e' = None) -> scan f size = ScanFound e m.
Proof. exact DiskProofs.scan_complete. Qed.
Print Assumptions c03_scan_complete.

(* Crash atomicity.  Let f0 end its last valid root record at e0, and let the trees cs it names load
   from f0, be represented by f0 below e0 (rep: every item record is as long as its location says)
   and have at most S (length f') nodes each, the budget of a load from f' (neither can be dropped:
   Counterex.crash_cex_overrun, crash_cex_budget).  Let f' be ANY file that agrees
   with f0 below e0 (every prefix of the writes of a later Flush, the write in flight cut at any byte,
   any junk after it: all of these only touch bytes at or beyond e0, see c09/append discipline) and in
   which no complete, self-consistent root record ends after e0.  Then re-opening f' finds the same
   root record and decodes exactly the same store: all collections together, never a mixture. *)
Theorem c03_crash_atomic : forall f0 f' e0 m0 cs,
  scan f0 (blen f0) = ScanFound e0 m0 -> agree f0 f' e0 -> e0 <= blen f' ->
  (forall e', e0 < e' <= blen f' -> root_at f' e' = None) ->
  load_all f0 m0 e0 = Some cs ->
  Forall (fun nt => rep f0 (snd nt) /\ below (snd nt) e0 /\ (size (snd nt) <= S (length f'))%nat) cs ->
  decode_store f0 = OpOk e0 cs /\ decode_store f' = OpOk e0 cs.
Proof. exact DiskProofs.crash_decode_store. Qed.
Print Assumptions c03_crash_atomic.

Theorem c03_scan_after_crash : forall f0 f' e0 m0,
  scan f0 (blen f0) = ScanFound e0 m0 -> agree f0 f' e0 -> e0 <= blen f' ->
  (forall e', e0 < e' <= blen f' -> root_at f' e' = None) -> scan f' (blen f') = ScanFound e0 m0.
Proof. exact DiskProofs.crash_recovers_previous. Qed.
Print Assumptions c03_scan_after_crash.

(* if no Flush ever completed: the documented "no roots" answer *)
Theorem c03_no_flush_completed : forall f', (forall e', e' <= blen f' -> root_at f' e' = None) ->
  0 < blen f' -> decode_store f' = OpNoRoots.
Proof. exact DiskProofs.no_roots_stays_none. Qed.
Print Assumptions c03_no_flush_completed.

(* and once all writes of the Flush completed, the new state is the one recovered (C02) *)
Theorem c03_completed_flush_recovered : forall f size cs f' size' cs',
  Forall (coll_ok f size) cs -> 0 <= size <= blen f -> flush_bytes f size cs = (f', size', cs') ->
  size' < two63 -> roots_len + blen (enc_json (root_map cs')) < two32 -> blen f' = size' ->
  Forall (fun nc => NoDup (node_offs (c_tree (snd nc)))) cs ->
  decode_store f' = OpOk size' (tmap cs') /\
  contents (tmap cs') = map (fun nc => (fst nc, elems (c_tree (snd nc)))) cs /\
  agree f f' size /\ Forall (coll_ok f' size') cs' /\
  Forall (fun nc => NoDup (node_offs (c_tree (snd nc)))) cs'.
Proof. exact DiskProofs.flush_decodes_nodup. Qed.
Print Assumptions c03_completed_flush_recovered.

(* a root record is only ever recognised from bytes below its end *)
Theorem c03_root_at_local : forall f f' e, agree f f' e -> root_at f' e = root_at f e.
Proof. exact DiskProofs.root_at_agree. Qed.
Print Assumptions c03_root_at_local.

(* About the Go source itself.  Generated.g_code is rewritten from the .go files by tools/gen on every run; the statements
   below are written by hand (Dec*.v, over the definitions of DecBase.v) and say what that code has at these points: the
   decisions the model takes there are the evaluations of the conditions of the Go source, for all values of their
   variables. *)
From GK Require Import GExpr Generated DecBase DecRoot DecFlush.
From Coq Require Import String.

(* the recorded offset of a root record and the length it implies (Codec.root_at) *)
Theorem c03_root_offset_check_is_source :
  exists c, decisions "Store.checkAndReadRoots" "offset" = [c] /\
    forall offset size len len32 : Z,
      let rho := upd (upd (upd (upd (upd env0 "offset" offset) "atomic.LoadInt64(&s.size)" size) "rootsLen" roots_len)
                          "length" len) "uint32((atomic.LoadInt64(&s.size)-offset))" len32 in
      gtrue rho c = Some (Z.geb offset 0 && Z.ltb offset (size - roots_len) && Z.eqb len len32).
Proof. exact DecRoot.root_offset_decision. Qed.
Print Assumptions c03_root_offset_check_is_source.

(* the backward scan: gives up at size <= rootsLen, tests MagicEnd at offsets 12 and 18 of the trailer, else moves down by one byte (Disk.scan) *)
Theorem c03_scan_stop_is_source :
  exists c, hd_error (conds 400 scan_loop) = Some c /\
    forall size : Z, gtrue (upd (upd env0 "atomic.LoadInt64(&s.size)" size) "rootsLen" roots_len) c = Some (Z.leb size roots_len).
Proof. exact DecRoot.scan_stop_decision. Qed.
Print Assumptions c03_scan_stop_is_source.

Theorem c03_scan_step_is_source :
  last scan_loop (SOther "") = SExpr (GCall "atomic.AddInt64" [GUn "&" (GVar "s.size"); GInt (-1)]).
Proof. exact DecRoot.scan_step_is_one. Qed.
Print Assumptions c03_scan_step_is_source.

Theorem c03_scan_magic_offsets_is_source :
  exists c, nth_error (conds 400 scan_loop) 3 = Some c /\
    c = GBin "&&" (GCall "bytes.Equal" [GVar "MagicEnd"; GCall "[:]" [GVar "rootsEnd"; GInt 12; GBin "+" (GInt 12) (GCall "len" [GVar "MagicEnd"])]])
                  (GCall "bytes.Equal" [GVar "MagicEnd"; GCall "[:]" [GVar "rootsEnd"; GBin "+" (GInt 12) (GCall "len" [GVar "MagicEnd"]); GNil]]) /\
    geval (upd env0 "len(MagicEnd)" (Z.of_nat (List.length g_magic_end))) (GBin "+" (GInt 12) (GCall "len" [GVar "MagicEnd"])) = Some 18%Z /\
    roots_end_len = 24%Z.
Proof. exact DecRoot.scan_magic_offsets. Qed.
Print Assumptions c03_scan_magic_offsets_is_source.

(* the root record is the single commit point: written last, for the pinned versions, size moved after the write *)
Theorem c03_flush_always_writes_roots_is_source :
  conds 400 (body "Store.Flush") = [GVar "s.readOnly"; GBin "==" (GVar "s.file") GNil; GBin "!=" (GVar "err") GNil] /\
  last (body "Store.Flush") (SOther "") = SReturn [GCall "s.writeRoots" [GVar "rnls"]] /\
  hd (SOther "") (body "Store.writeRoots") = SAssign [GVar "sJSON"; GVar "err"] ":=" [GCall "json.Marshal" [GVar "rnls"]] /\
  before "c.rootAddRef" "coll[name].write" (call_list "Store.Flush") = true /\
  before "coll[name].write" "s.writeRoots" (call_list "Store.Flush") = true.
Proof. exact DecFlush.flush_always_writes_roots. Qed.
Print Assumptions c03_flush_always_writes_roots_is_source.

Theorem c03_write_roots_order_is_source :
  Forall (fun c => c = GBin "!=" (GVar "err") GNil) (conds 400 (body "Store.writeRoots")) /\
  before "s.file.WriteAt" "atomic.StoreInt64" (call_list "Store.writeRoots") = true.
Proof. exact DecFlush.write_roots_order. Qed.
Print Assumptions c03_write_roots_order_is_source.
