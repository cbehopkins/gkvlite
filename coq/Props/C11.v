(* C11 — CopyTo produces an equivalent, compact, durable copy and leaves the source alone.
   On trees: CopyTo visits each source collection in ascending key order (C06) and SetItem's every
   item, with its own priority, into an empty destination collection: copy_tree.  On bytes, further
   down (CopyRun.v): CopyTo as the history of calls it makes on the destination store. *)
From GK Require Import Base Order Treap TreapSpec Store Codec CodecProofs Disk DiskProofs CopyTo.

(* same keys, values and priorities, a search tree with exact aggregates and heap order, same totals,
   same lookups -- for every source tree and comparator *)
Theorem c11_equivalent : forall cmp, cmp_laws cmp -> forall src, bst cmp src ->
  let dst := copy_tree cmp src in
  elems dst = elems src /\ bst cmp dst /\ aggs dst /\ heap dst /\
  totals dst = (Z.of_nat (length (elems src)), sum_bytes (elems src)) /\
  (forall k, lookup cmp dst k = lookup cmp src k).
Proof. exact CopyTo.copy_equivalent. Qed.
Print Assumptions c11_equivalent.

(* with distinct priorities even the shape is the same *)
Theorem c11_same_shape : forall cmp, cmp_laws cmp -> forall src, bst cmp src -> heap src ->
  NoDup (map iprio (elems src)) -> shape_of (copy_tree cmp src) = shape_of src.
Proof. exact CopyTo.copy_shape. Qed.
Print Assumptions c11_same_shape.

(* through SetItem's validation: every stored item is valid, so no SetItem of the copy is refused *)
Theorem c11_via_set_item : forall cmp src, Forall item_valid (elems src) ->
  copy_tree_set cmp src = Some (copy_tree cmp src).
Proof. exact CopyTo.copy_via_set_item. Qed.
Print Assumptions c11_via_set_item.

(* durable: flushing the destination and decoding its file gives the destination's contents (C02) *)
Theorem c11_durable : forall f size cs f' size' cs',
  Forall (coll_ok f size) cs -> 0 <= size <= blen f -> flush_bytes f size cs = (f', size', cs') ->
  size' < two63 -> roots_len + blen (enc_json (root_map cs')) < two32 -> blen f' = size' ->
  Forall (fun nc => NoDup (node_offs (c_tree (snd nc)))) cs ->
  decode_store f' = OpOk size' (tmap cs') /\
  contents (tmap cs') = map (fun nc => (fst nc, elems (c_tree (snd nc)))) cs /\
  agree f f' size /\ Forall (coll_ok f' size') cs' /\
  Forall (fun nc => NoDup (node_offs (c_tree (snd nc)))) cs'.
Proof. exact DiskProofs.flush_decodes_nodup. Qed.
Print Assumptions c11_durable.

(* About the Go source itself.  Generated.g_code is rewritten from the .go files by tools/gen on every run; the statements
   below are written by hand (Dec*.v, over the definitions of DecBase.v) and say what that code has at these points: the
   decisions the model takes there are the evaluations of the conditions of the Go source, for all values of their
   variables. *)
From GK Require Import GExpr Generated DecBase DecCopyTo.
From Coq Require Import String.

(* CopyTo flushes after every flushEvery-th item, and never when flushEvery <= 0 *)
Theorem c11_flush_schedule_is_source :
  exists c, decisions "<lit:Store.CopyTo#1>" "flushEvery" = [c] /\
    forall fe n : Z, Z.le 0 n ->
      gtrue (upd (upd env0 "flushEvery" fe) "numItems" n) c = Some (Z.gtb fe 0 && Z.eqb (Z.modulo n fe) 0).
Proof. exact DecCopyTo.copyto_flush_schedule. Qed.
Print Assumptions c11_flush_schedule_is_source.

Theorem c11_copyto_structure_is_source :
  In (GBin ">" (GVar "flushEvery") (GInt 0)) (conds 400 (body "Store.CopyTo")) /\
  before "dstStore.SetCollection" "srcColl.VisitItemsAscendEx" (call_list "Store.CopyTo") = true /\
  before "srcColl.VisitItemsAscendEx" "dstStore.Flush" (call_list "Store.CopyTo") = true /\
  In (SAssign [GVar "dstColl"] ":=" [GCall "dstStore.SetCollection" [GVar "name"; GVar "srcColl.compare"]])
     (match nth_error (body "Store.CopyTo") 4 with Some (SRange _ _ _ b) => b | _ => [] end).
Proof. exact DecCopyTo.copyto_structure. Qed.
Print Assumptions c11_copyto_structure_is_source.

(* ON BYTES (CopyRun.v): CopyTo as the history of calls it makes on the destination store -- SetCollection per source
   collection in name order, SetItem in ascending key order, a Flush after every flushEvery-th item and a closing Flush.
   The destination file this predicts is compared byte for byte with the implementation's on every copy. *)
From GK Require Import Store StoreSpec StoreRefine Codec Disk DStore DStoreRefine CopyRun CopyRunProofs.
From Coq Require Import ZArith.

Theorem c11_copy_calls_all_succeed : forall src fe, src_ok src ->
  Forall (fun o => o = ROk) (run (init true) (copy_ops src fe)).
Proof. exact CopyRunProofs.copy_all_ok. Qed.
Print Assumptions c11_copy_calls_all_succeed.

Theorem c11_copy_contents : forall src fe, src_ok src ->
  let s := fold_left (fun s o => fst (step s o)) (copy_ops src fe) (init true) in
  map (fun nc => (fst nc, c_cmp (snd nc), elems (c_tree (snd nc)))) (s_cur s) = src.
Proof. exact CopyRunProofs.copy_contents. Qed.
Print Assumptions c11_copy_contents.

Theorem c11_copy_flushed : forall src fe, src_ok src -> (0 < fe)%Z ->
  let s := fold_left (fun s o => fst (step s o)) (copy_ops src fe) (init true) in
  exists st rest, s_flushed s = st :: rest /\ ecolls st = ecolls (s_cur s).
Proof. exact CopyRunProofs.copy_flushed. Qed.
Print Assumptions c11_copy_flushed.

Theorem c11_copy_bytes_agree : forall src fe,
  ops_ok [] (copy_ops src fe) -> history_ok (copy_ops src fe) ->
  fst (copy_result src fe) = run (init true) (copy_ops src fe).
Proof. exact CopyRunProofs.copy_bytes_agree. Qed.
Print Assumptions c11_copy_bytes_agree.

Theorem c11_copy_ops_ok : forall src fe, src_ok src -> ops_ok [] (copy_ops src fe).
Proof. exact CopyRunProofs.copy_ops_ok. Qed.
Print Assumptions c11_copy_ops_ok.
