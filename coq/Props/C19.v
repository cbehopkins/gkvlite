(* C19 — lazy loading: opening is O(1) and key-only operations never read values.
   Lazy.v / LazyMut.v predict the ReadAt calls of NewStore / GetItem / MinItem / MaxItem / visits / SetItem /
   Delete on an uncached store, LazySeq.v / LazySeq2.v / LazySeq3.v those of every call of a run (lookups and
   mutations; with visits, Len, GetTotals; with Flush) after a re-open;
   the predictions are compared call by call with the implementation on every run. *)
From GK Require Import Base Order Treap TreapSpec Codec CodecProofs Disk DiskProofs Lazy LazyProofs LazyVisit LazyMut LazyMutProofs.

(* opening a file that ends in a root record reads the 24-byte trailer and the root record, nothing else:
   two reads inside the root record, whatever the file holds below it *)
Theorem c19_open_reads_root_only : forall f m, root_at f (blen f) = Some m ->
  exists t o, read_at f (blen f - roots_end_len) roots_end_len = Some t /\ o = de (sub t 0 8) /\
    open_reads f = [Rd (blen f - 24) 24; Rd o (blen f - o - 24)] /\
    0 <= o /\ o <= blen f - 24 /\ blen f - 24 + 24 <= blen f /\ 0 <= blen f - o - 24 /\
    o + (blen f - o - 24) <= blen f /\ roots_len < blen f - o /\
    de (sub t 8 4) = (blen f - o) mod two32 /\ scan f (blen f) = ScanFound (blen f) m.
Proof. exact LazyProofs.L5_open. Qed.
Print Assumptions c19_open_reads_root_only.

(* a key-only GetItem reads node records, item headers and item keys only ... *)
Theorem c19_get_reads_nodes_and_keys : forall cmp f t l key fuel,
  rep f t -> persisted t -> root_loc t = l -> (height t <= fuel)%nat ->
  Forall (fun r => in_node t r \/ in_keypart t r) (fst (get_reads fuel cmp f l key false)).
Proof. exact LazyProofs.L2_get_false. Qed.
Print Assumptions c19_get_reads_nodes_and_keys.

(* ... hence, the records of a file being pairwise disjoint, never a byte of any item's value *)
Theorem c19_get_never_reads_values : forall cmp f t l key fuel,
  rep f t -> persisted t -> root_loc t = l -> (height t <= fuel)%nat -> records_disjoint t ->
  forall r, In r (fst (get_reads fuel cmp f l key false)) ->
  forall q it, In (q, it) (item_locs t) -> rd_disjoint r (value_range q it).
Proof. exact LazyProofs.L4_get. Qed.
Print Assumptions c19_get_never_reads_values.

Theorem c19_minmax_never_read_values : forall f t l left,
  rep f t -> persisted t -> root_loc t = l -> records_disjoint t ->
  forall r, In r (fst (minmax_reads f l left false)) ->
  forall q it, In (q, it) (item_locs t) -> rd_disjoint r (value_range q it).
Proof. exact LazyProofs.L4_minmax. Qed.
Print Assumptions c19_minmax_never_read_values.

(* the records of the file stay pairwise disjoint under Flush (new records are appended end to end) *)
Theorem c19_flush_keeps_records_disjoint : forall f size t f' size' t',
  below t size -> records_disjoint t -> write_tree f size t = (f', size', t') -> records_disjoint t'.
Proof. exact LazyProofs.L3_write_tree. Qed.
Print Assumptions c19_flush_keeps_records_disjoint.

(* and the lazy lookups return what the sorted map returns *)
Theorem c19_get_result : forall cmp f t l key wv fuel, cmp_laws cmp -> bst cmp t ->
  rep f t -> persisted t -> root_loc t = l -> (height t < fuel)%nat ->
  snd (get_reads fuel cmp f l key wv) = find cmp key (elems t).
Proof. exact LazyProofs.L1_get_find. Qed.
Print Assumptions c19_get_result.

(* whole visits (VisitItemsAscend/Descend, Ex, iterators, Len) with withValue=false on an uncached tree: node
   records, item headers and keys only; never a byte of any value *)
Theorem c19_visit_reads_nodes_and_keys : forall cmp asc f t l target b fuel,
  rep f t -> persisted t -> root_loc t = l -> (height t <= fuel)%nat ->
  Forall (fun r => in_node t r \/ in_keypart t r) (fst (fst (visit_reads fuel cmp asc f l target false b))).
Proof. exact LazyVisit.visit_reads_keyonly. Qed.
Print Assumptions c19_visit_reads_nodes_and_keys.

Theorem c19_visit_never_reads_values : forall cmp asc f t l target b fuel,
  rep f t -> persisted t -> root_loc t = l -> (height t <= fuel)%nat -> records_disjoint t ->
  forall r, In r (fst (fst (visit_reads fuel cmp asc f l target false b))) ->
  forall q it, In (q, it) (item_locs t) -> rd_disjoint r (value_range q it).
Proof. exact LazyVisit.visit_never_reads_values. Qed.
Print Assumptions c19_visit_never_reads_values.

(* SetItem and Delete (LazyMut.v: treap.go union / split / join and numInfo instrumented with every nodeLoc.read and
   itemLoc.read(false) they perform; a record is read from the file the first time it is touched only) *)

(* the instrumented functions are the algorithms of C01: same result trees *)
Theorem c19_instrumented_is_same_algorithm : forall cmp fuel a b t s this that,
  option_map fst (union_t cmp fuel a b) = union cmp fuel a b /\
  fst (split_t cmp t s) = Treap.split cmp t s /\
  fst (join_t this that) = join this that.
Proof. intros. split; [apply LazyMutProofs.union_t_fst | split; [apply LazyMutProofs.split_t_fst | apply LazyMutProofs.join_t_fst]]. Qed.
Print Assumptions c19_instrumented_is_same_algorithm.

(* SetItem / Delete read node records, item headers and keys only ... *)
Theorem c19_set_reads_nodes_and_keys : forall cmp t key val prio,
  Forall (fun r => in_node t r \/ in_keypart t r) (set_treads cmp t key val prio).
Proof. exact LazyMutProofs.set_reads_keyonly. Qed.
Print Assumptions c19_set_reads_nodes_and_keys.
Theorem c19_delete_reads_nodes_and_keys : forall cmp t k,
  Forall (fun r => in_node t r \/ in_keypart t r) (del_treads cmp t k).
Proof. exact LazyMutProofs.del_reads_keyonly. Qed.
Print Assumptions c19_delete_reads_nodes_and_keys.

(* ... hence never a byte of any value *)
Theorem c19_set_never_reads_values : forall cmp f t key val prio,
  rep f t -> records_disjoint t ->
  forall r, In r (set_treads cmp t key val prio) ->
  forall q it, In (q, it) (item_locs t) -> rd_disjoint r (value_range q it).
Proof. exact LazyMutProofs.set_never_reads_values. Qed.
Print Assumptions c19_set_never_reads_values.
Theorem c19_delete_never_reads_values : forall cmp f t k,
  rep f t -> records_disjoint t ->
  forall r, In r (del_treads cmp t k) ->
  forall q it, In (q, it) (item_locs t) -> rd_disjoint r (value_range q it).
Proof. exact LazyMutProofs.del_never_reads_values. Qed.
Print Assumptions c19_delete_never_reads_values.

(* what SetItem reads does not depend on the value being written *)
Theorem c19_set_reads_value_irrelevant : forall cmp t key v v' prio,
  set_treads cmp t key (Some v) prio = set_treads cmp t key (Some v') prio.
Proof. exact LazyMutProofs.set_reads_value_irrelevant. Qed.
Print Assumptions c19_set_reads_value_irrelevant.

(* the function the harness evaluates on the implementation's file (the tree as the independent decoder loads it)
   is the one the theorems are about *)
Theorem c19_mutation_reads_from_file : forall cmp f t b set key prio,
  rep f t -> persisted t -> below t b -> (size t <= S (length f))%nat ->
  mut_reads_file cmp f (root_loc t) b set key prio =
  Some (if set then set_treads cmp t key (Some []) prio else del_treads cmp t key).
Proof. exact LazyMutProofs.mut_reads_file_spec. Qed.
Print Assumptions c19_mutation_reads_from_file.

(* every record is read at most once per call *)
Theorem c19_each_record_read_once : forall ts s, NoDup (touch_offs (fresh s ts)).
Proof. exact LazyMutProofs.fresh_nodup. Qed.
Print Assumptions c19_each_record_read_once.

(* whatever is cached or evicted: with any set s of records already in memory, GetItem(key, false), SetItem and Delete
   read node records, item headers and keys only *)
Theorem c19_any_cache_state : forall cmp t key val prio k s,
  Forall (fun r => in_node t r \/ in_keypart t r) (reads_of s (get_t cmp t k)) /\
  Forall (fun r => in_node t r \/ in_keypart t r) (reads_of s (set_touches cmp t key val prio)) /\
  Forall (fun r => in_node t r \/ in_keypart t r) (reads_of s (del_touches cmp t k)).
Proof. exact LazyMutProofs.mut_reads_any_cache. Qed.
Print Assumptions c19_any_cache_state.

(* About the Go source itself.  Generated.g_code is rewritten from the .go files by tools/gen on every run; the statements
   below are written by hand (Dec*.v, over the definitions of DecBase.v) and say what that code has at these points: the
   decisions the model takes there are the evaluations of the conditions of the Go source, for all values of their
   variables. *)
From GK Require Import GExpr Generated DecBase DecItemRead DecVisit.
From Coq Require Import String.

(* itemLoc.read: an item is (re)read from the file iff it is not cached, or cached without its value while the value is
   asked for: the rule LazySeq.vreads applies to an item touch *)
Theorem c19_item_reload_is_source :
  exists c, decisions "itemLoc.read" "icur.Val" = [c] /\
    forall cached hasval wv : bool,
      gtrue (upd (upd (upd env0 "icur" (b2z cached)) "icur.Val" (b2z hasval)) "withValue" (b2z wv)) c =
      Some (negb cached || (negb hasval && wv)).
Proof. exact DecItemRead.item_reload_decision. Qed.
Print Assumptions c19_item_reload_is_source.

(* visitNodes reads the item key-only on the way down and re-reads it with exactly the caller's withValue *)
Theorem c19_visit_item_reads_are_source :
  filter (fun c => String.eqb (fst c) "nItemLoc.read") (calls_a 400 (body "Store.visitNodes")) =
  [("nItemLoc.read", [GVar "t"; GVar "false"]); ("nItemLoc.read", [GVar "t"; GVar "withValue"])].
Proof. exact DecVisit.visit_item_reads. Qed.
Print Assumptions c19_visit_item_reads_are_source.

(* whole sequences of calls (LazySeq.v): what one call loaded stays in memory for the next.  The ReadAt calls of every
   call of a run of lookups and mutations after a re-open are compared with LazySeq.srun_reads on every run. *)
From GK Require Import LazySeq LazySeqProofs.

Theorem c19_sequence_key_only : forall cmp t0 ops m,
  forallb key_only_op ops = true ->
  Forall (Forall (fun r => in_node t0 r \/ in_keypart t0 r)) (srun_reads cmp t0 m ops).
Proof. exact LazySeqProofs.seq_key_only. Qed.
Print Assumptions c19_sequence_key_only.

Theorem c19_sequence_never_reads_values : forall cmp f t0 ops m,
  rep f t0 -> records_disjoint t0 -> forallb key_only_op ops = true ->
  Forall (Forall (fun r => forall q it, In (q, it) (item_locs t0) -> rd_disjoint r (value_range q it))) (srun_reads cmp t0 m ops).
Proof. exact LazySeqProofs.seq_never_reads_values. Qed.
Print Assumptions c19_sequence_never_reads_values.

Theorem c19_lookup_twice_reads_nothing : forall cmp t m k,
  exists r1, srun_reads cmp t m [SGet k false; SGet k false] = [r1; []].
Proof. exact LazySeqProofs.lookup_twice_reads_nothing. Qed.
Print Assumptions c19_lookup_twice_reads_nothing.

Theorem c19_first_call_is_single_call_model : forall cmp t k v prio,
  srun_reads cmp t [] [SSet k v prio] = [set_treads cmp t k (Some v) prio] /\
  srun_reads cmp t [] [SDel k] = [del_treads cmp t k].
Proof. exact LazySeqProofs.first_call_is_lazymut. Qed.
Print Assumptions c19_first_call_is_single_call_model.

Theorem c19_sequence_reads_from_file : forall cmp f t b ops,
  rep f t -> persisted t -> below t b -> (Treap.size t <= S (List.length f))%nat ->
  seq_reads_file cmp f (root_loc t) b ops = Some (srun_reads cmp t [] ops).
Proof. exact LazySeqProofs.seq_reads_file_spec. Qed.
Print Assumptions c19_sequence_reads_from_file.

(* ... with whole visits, Len and GetTotals in the sequence (LazySeq2.v): a visit drops the items it touched when it leaves
   their nodes, so the next call reads them once more *)
From GK Require Import LazySeq2 LazySeq2Proofs.

Theorem c19_sequence_with_visits_key_only : forall cmp t0 ops m,
  forallb key_only_op2 ops = true ->
  Forall (Forall (fun r => in_node t0 r \/ in_keypart t0 r)) (srun_reads2 cmp t0 m ops).
Proof. exact LazySeq2Proofs.seq2_key_only. Qed.
Print Assumptions c19_sequence_with_visits_key_only.

Theorem c19_sequence_with_visits_never_reads_values : forall cmp f t0 ops m,
  rep f t0 -> records_disjoint t0 -> forallb key_only_op2 ops = true ->
  Forall (Forall (fun r => forall q it, In (q, it) (item_locs t0) -> rd_disjoint r (value_range q it))) (srun_reads2 cmp t0 m ops).
Proof. exact LazySeq2Proofs.seq2_never_reads_values. Qed.
Print Assumptions c19_sequence_with_visits_never_reads_values.

Theorem c19_visit_evicts_items : forall cmp t m asc target wv b rs t' m',
  sstep2 cmp t m (SVis asc target wv b) = (rs, t', m') ->
  t' = t /\
  (forall o, In o (item_offs (fst (fst (visit_vt cmp asc t target wv b)))) -> mem_find o m' = None) /\
  (forall o fl, mem_find o m = Some fl -> ~ In o (item_offs (fst (fst (visit_vt cmp asc t target wv b)))) -> mem_find o m' = Some fl).
Proof. exact LazySeq2Proofs.visit_evicts_items. Qed.
Print Assumptions c19_visit_evicts_items.

Theorem c19_first_visit_is_single_visit_model : forall cmp f asc t target wv b,
  rep f t -> persisted t -> records_disjoint t ->
  hd [] (srun_reads2 cmp t [] [SVis asc target wv b]) = fst (fst (visit_treads cmp asc t target wv b)).
Proof. exact LazySeq2Proofs.first_visit_is_lazyvisit_rep. Qed.
Print Assumptions c19_first_visit_is_single_visit_model.

Theorem c19_sequence_with_visits_from_file : forall cmp f t b ops,
  rep f t -> persisted t -> below t b -> (Treap.size t <= S (List.length f))%nat ->
  seq2_reads_file cmp f (root_loc t) b ops = Some (srun_reads2 cmp t [] ops).
Proof. exact LazySeq2Proofs.seq2_reads_file_spec. Qed.
Print Assumptions c19_sequence_with_visits_from_file.

(* ... and with Store.Flush INSIDE the run (LazySeq3.v): the memory after a Flush.  The state carries the file as the model
   writes it and the trees of all collections; Flush reads nothing, what it wrote stays in memory at the offsets
   Disk.write_tree assigned, and a later visit drops the flushed items like any other persisted item *)
From GK Require Import Store DStoreRefine LazySeq3 LazySeq3Proofs.

(* the Flush of the run model is the Flush of the byte-level store model of C02 *)
Theorem c19_run_flush_is_dstore_flush : forall f size (cs : colls),
  flush_trees f size (tmap cs) =
  let '(f', s', cs') := flush_bytes f size cs in (f', s', tmap cs').
Proof. exact LazySeq3Proofs.flush_trees_is_flush_bytes. Qed.
Print Assumptions c19_run_flush_is_dstore_flush.

Theorem c19_flush_reads_nothing : forall cmp name s, fst (sstep3 cmp name s SFlush) = [].
Proof. exact LazySeq3Proofs.flush_step_reads_nothing. Qed.
Print Assumptions c19_flush_reads_nothing.

Theorem c19_flush_keeps_memory : forall cmp name s o,
  mem_find o (ss_mem s) <> None -> mem_find o (ss_mem (snd (sstep3 cmp name s SFlush))) <> None.
Proof. exact LazySeq3Proofs.flush_keeps_memory. Qed.
Print Assumptions c19_flush_keeps_memory.

(* a Flush is invisible to the ReadAt calls of the lookup that follows it: everything it wrote is in memory *)
Theorem c19_lookup_after_flush_reads_the_same : forall cmp name s o,
  (forall t, cs_get name (ss_colls s) = Some t -> rep (ss_file s) t /\ below t (ss_size s)) ->
  lookup_op o = true ->
  fst (sstep3 cmp name (snd (sstep3 cmp name s SFlush)) (S2 (S1 o))) = fst (sstep3 cmp name s (S2 (S1 o))).
Proof. exact LazySeq3Proofs.lookup_after_flush_same_reads_gen. Qed.
Print Assumptions c19_lookup_after_flush_reads_the_same.

(* the invariant of a run with flushes: every tree is represented in the current file below the write position *)
Theorem c19_run_with_flushes_invariant : forall cmp name s o,
  inv3 s -> set_okb o = true -> totals_ok3 s o -> ss_size (snd (sstep3 cmp name s o)) < two63 ->
  inv3 (snd (sstep3 cmp name s o)).
Proof. exact LazySeq3Proofs.sstep3_inv. Qed.
Print Assumptions c19_run_with_flushes_invariant.

Theorem c19_run_with_flushes_keeps_records_disjoint : forall cmp name s o,
  inv3 s -> disj3 s -> disj3 (snd (sstep3 cmp name s o)).
Proof. exact LazySeq3Proofs.sstep3_disjoint. Qed.
Print Assumptions c19_run_with_flushes_keeps_records_disjoint.

(* over a whole run with flushes, no key-only call reads a byte of the value of any item persisted in the tree it runs
   on -- the items the run itself flushed included *)
Theorem c19_run_with_flushes_never_reads_values : forall cmp name ops s,
  inv3 s -> disj3 s -> forallb key_only_op3 ops = true -> forallb set_okb ops = true -> run_ok3 cmp name s ops ->
  Forall2 never_value (srun3 cmp name s ops) (srun3_trees cmp name s ops).
Proof. exact LazySeq3Proofs.seq3_never_reads_values. Qed.
Print Assumptions c19_run_with_flushes_never_reads_values.

(* the hypotheses are satisfiable: a file written by the model's Flush and re-opened *)
Theorem c19_run_with_flushes_example : exists s, seq3_start ex3_file = Some s /\ inv3 s /\ disj3 s.
Proof. exact LazySeq3Proofs.seq3_example_inv. Qed.
Print Assumptions c19_run_with_flushes_example.

(* a Flush is invisible to the ReadAt calls of a whole LIST of lookups and GetTotals that follows it, and to one whole visit
   right after it; it is NOT invisible to the call after such a visit (the visit evicted the flushed items, the next call
   reads them back): the statement cannot be extended to sequences containing visits *)
From GK Require Import LazySeq3More.
Theorem c19_lookups_after_flush_read_the_same : forall cmp name s ops,
  (forall t, cs_get name (ss_colls s) = Some t -> rep (ss_file s) t /\ below t (ss_size s)) ->
  forallb lookup_op2 ops = true ->
  srun3 cmp name (snd (sstep3 cmp name s SFlush)) (map S2 ops) = srun3 cmp name s (map S2 ops).
Proof. exact LazySeq3More.lookups_after_flush_same_reads. Qed.
Print Assumptions c19_lookups_after_flush_read_the_same.

Theorem c19_visit_after_flush_reads_the_same : forall cmp name s asc target wv b,
  (forall t, cs_get name (ss_colls s) = Some t -> rep (ss_file s) t /\ below t (ss_size s)) ->
  fst (sstep3 cmp name (snd (sstep3 cmp name s SFlush)) (S2 (SVis asc target wv b))) =
  fst (sstep3 cmp name s (S2 (SVis asc target wv b))).
Proof. exact LazySeq3More.visit_after_flush_same_reads. Qed.
Print Assumptions c19_visit_after_flush_reads_the_same.

Theorem c19_call_after_visit_after_flush_differs :
  exists cmp name s asc target wv b k wv',
    (forall t, cs_get name (ss_colls s) = Some t -> rep (ss_file s) t /\ below t (ss_size s)) /\
    srun3 cmp name (snd (sstep3 cmp name s SFlush)) [S2 (SVis asc target wv b); S2 (S1 (SGet k wv'))] <>
    srun3 cmp name s [S2 (SVis asc target wv b); S2 (S1 (SGet k wv'))].
Proof. exact LazySeq3More.visit_after_flush_then_lookup_rereads. Qed.
Print Assumptions c19_call_after_visit_after_flush_differs.
