(* C07 — file errors are reported, never swallowed, and failed calls change nothing.
   Proved, in this order: the recycling protocol is unharmed by a failed mutation (Proto.s_mabort);
   Store.Flush on bytes when any ONE WriteAt call k fails after any torn length
   (DiskFault.flush_fault, compared byte for byte with the implementation under fault injection): the
   Flush fails, nothing durable is damaged, the visible contents are unchanged, the store is still
   represented by the file, and a retried Flush -- also after several failed attempts -- produces
   exactly the file of a Flush that never failed; whole histories in which Flush calls fail, first
   under the retry discipline, then with failed calls anywhere; a failing ReadAt during a lookup;
   the order of effects in the source.
   The error-return / no-change part for the other calls is decided by fault enumeration on the
   implementation. *)
From stdpp Require Import gmap.
From GK Require Import Proto ProtoProofs.

(* after a failed SetItem/Delete (abort) no cell of the still-current tree carries the version's mark *)
Theorem c07_marks_restored : forall s s' l m x, reachable s -> muts s !! l = Some m -> vers s !! m_ver m = Some x ->
  decref (set_mut (set_marks s (setm (filter (fun n => marks s !! n = Some (M (m_ver m))) (v_tree x)) U (marks s))) l None)
         (m_ver m) s' ->
  forall x', vers s' !! m_ver m = Some x' -> forall n, n ∈ v_tree x' -> marks s' !! n <> Some (M (m_ver m)).
Proof. exact ProtoProofs.marks_restored. Qed.
Print Assumptions c07_marks_restored.

(* abort is an ordinary step of the protocol, so every safety theorem holds in the continuation ("as if never") *)
Theorem c07_safe_after_abort : forall s, reachable s -> forall v x n,
  vers s !! v = Some x -> n ∈ v_tree x -> exists k, marks s !! n = Some k /\ k <> F.
Proof. exact ProtoProofs.proto_safe. Qed.
Print Assumptions c07_safe_after_abort.

(* the quiescent current tree is entirely unmarked: the invariant monitored on the implementation after every failed call *)
Theorem c07_current_tree_unmarked : forall s, reachable s -> forall h hd v x,
  handles s !! h = Some hd -> h_ro hd = false -> h_root hd = Some v -> muts s !! h_lin hd = None ->
  vers s !! v = Some x -> forall n, n ∈ v_tree x -> marks s !! n = Some U.
Proof. exact ProtoProofs.current_tree_unmarked. Qed.
Print Assumptions c07_current_tree_unmarked.

(* Store.Flush with a failing WriteAt call, on bytes *)
From GK Require Import Base Treap Store StoreSpec StoreRefine Codec Disk DiskProofs DStore DStoreRefine DiskFault DiskFaultProofs DFaultRun DFaultHist.
From Coq Require Import ZArith List.
Import ListNotations.
Local Open Scope Z_scope.

(* every call position inside the Flush makes it return an error ... *)
Theorem c07_flush_fault_fails : forall k torn f size cs f1 s1 cs1 b,
  (k < flush_calls cs)%nat -> flush_fault k torn f size cs = (f1, s1, cs1, b) -> b = true.
Proof. exact DiskFaultProofs.flush_fault_fails. Qed.
Print Assumptions c07_flush_fault_fails.

(* ... and a plan beyond its last call is the fault-free Flush (the model of the failing Flush extends Disk.flush_bytes) *)
Theorem c07_flush_fault_none : forall k torn f size cs,
  0 <= size -> (flush_calls cs <= k)%nat -> flush_fault k torn f size cs = (flush_bytes f size cs, false).
Proof. exact DiskFaultProofs.flush_fault_none. Qed.
Print Assumptions c07_flush_fault_none.

(* no failed Flush damages the durable states already in the file: nothing below the old size changes, size never
   moves backwards and stays inside the file *)
Theorem c07_failed_flush_durable : forall k torn f size cs f1 s1 cs1 b,
  0 <= size <= blen f -> flush_fault k torn f size cs = (f1, s1, cs1, b) ->
  agree f f1 size /\ size <= s1 <= blen f1.
Proof. exact DiskFaultProofs.flush_fault_durable. Qed.
Print Assumptions c07_failed_flush_durable.

(* the visible contents are exactly as before: same names, comparators and trees up to the recorded locations *)
Theorem c07_failed_flush_contents : forall k torn f size cs f1 s1 cs1 b,
  flush_fault k torn f size cs = (f1, s1, cs1, b) ->
  map fst cs1 = map fst cs /\
  map (fun nc => c_cmp (snd nc)) cs1 = map (fun nc => c_cmp (snd nc)) cs /\
  map (fun nc => erase (c_tree (snd nc))) cs1 = map (fun nc => erase (c_tree (snd nc))) cs.
Proof. exact DiskFaultProofs.flush_fault_contents. Qed.
Print Assumptions c07_failed_flush_contents.

(* a retried Flush behaves as if the failed call had never been made: same file, same size, same collections,
   for EVERY call number k and EVERY torn length *)
Theorem c07_flush_retry_same : forall k torn f size cs f1 s1 cs1,
  0 <= size <= blen f -> flush_fault k torn f size cs = (f1, s1, cs1, true) ->
  flush_bytes f1 s1 cs1 = flush_bytes f size cs.
Proof. exact DiskFaultProofs.flush_retry_same. Qed.
Print Assumptions c07_flush_retry_same.

(* also after two failed attempts in a row (and so, by iterating, after any number) *)
Theorem c07_flush_retry_twice : forall k1 t1 k2 t2 f size cs fa sa csa fb sb csb,
  0 <= size <= blen f ->
  flush_fault k1 t1 f size cs = (fa, sa, csa, true) ->
  flush_fault k2 t2 fa sa csa = (fb, sb, csb, true) ->
  flush_bytes fb sb csb = flush_bytes f size cs.
Proof. exact DiskFaultProofs.flush_retry_twice. Qed.
Print Assumptions c07_flush_retry_twice.

(* what a re-open sees after the failed Flush is the previous Flush (side condition of C03: the torn bytes
   do not themselves contain a complete root record) *)
Theorem c07_failed_flush_reopen : forall k torn f size cs f1 s1 cs1 b e0 m0 ts,
  0 <= size <= blen f -> e0 <= size ->
  flush_fault k torn f size cs = (f1, s1, cs1, b) ->
  scan f (blen f) = ScanFound e0 m0 ->
  (forall e', e0 < e' <= blen f1 -> root_at f1 e' = None) ->
  load_all f m0 e0 = Some ts ->
  Forall (fun nt => rep f (snd nt) /\ below (snd nt) e0 /\ (Treap.size (snd nt) <= S (length f1))%nat) ts ->
  decode_store f1 = OpOk e0 ts.
Proof. exact DiskFaultProofs.flush_fault_reopen. Qed.
Print Assumptions c07_failed_flush_reopen.

(* the in-memory store is still represented by the file: every record it points to (and may lazily load or
   re-load after an eviction) holds the right bytes *)
Theorem c07_failed_flush_represented : forall k torn f size cs f1 s1 cs1 b,
  0 <= size <= blen f -> Forall (coll_ok f size) cs ->
  flush_fault k torn f size cs = (f1, s1, cs1, b) -> s1 < two63 ->
  Forall (coll_ok f1 s1) cs1.
Proof. exact DiskFaultProofs.flush_fault_coll_ok. Qed.
Print Assumptions c07_failed_flush_represented.

(* non-vacuity: on a three-item collection every call position and four torn lengths fail and retry to the same file *)
Theorem c07_fault_example :
  let it k p := mkItem [k] [k; k; k] p in
  let t0 := insert cmp_bytes (insert cmp_bytes (insert cmp_bytes E (it 97%N 5)) (it 98%N 9)) (it 99%N 2) in
  let cs0 : colls := [([120%N], mkColl O t0)] in
  forallb (fun k => forallb (fun torn =>
     let '(f1, s1, cs1, failed) := flush_fault k torn [] 0 cs0 in
     let '(f2, s2, _) := flush_bytes f1 s1 cs1 in
     let '(f3, s3, _) := flush_bytes [] 0 cs0 in
     failed && beq f2 f3 && (s2 =? s3)) [0; 1; 7; 30]%nat) (seq 0 (flush_calls cs0)) = true.
Proof. exact DiskFaultProofs.ex_fault_retry. Qed.
Print Assumptions c07_fault_example.

(* OVER WHOLE HISTORIES (DFaultRun.dfrun: DStore histories in which Flush calls may fail).  Under the retry
   discipline (a failed Flush is followed by further failed attempts and then by the Flush again) ... *)

(* ... any number of failed attempts followed by the Flush leave the byte-level store in exactly the state of a
   Flush that never failed *)
Theorem c07_failed_attempts_then_flush : forall attempts s,
  dsz s ->
  Forall (fun o => exists k torn, o = FFlushFail k torn) attempts ->
  faults_fire s attempts ->
  let s1 := fold_left (fun st o => fst (dfstep st o)) attempts s in
  dstep s1 OFlush = dstep s OFlush.
Proof. exact DFaultHist.failed_attempts_then_flush. Qed.
Print Assumptions c07_failed_attempts_then_flush.

(* ... so every completed call of the history answers exactly as in the history without the failed attempts, and
   leaves the same file: all later operations behave as if the failed calls had never been made *)
Theorem c07_retry_invisible : forall ops s,
  dsz s -> retried ops -> faults_fire s ops ->
  completed ops (dfrun s ops) = combine (drun s (strip ops)) (dfiles s (strip ops)).
Proof. exact DFaultHist.dfrun_retry_invisible. Qed.
Print Assumptions c07_retry_invisible.

(* ... and (with C02's history theorem) that is the abstract store with its stack of flushed states *)
Theorem c07_retry_refines_store : forall ops,
  retried ops -> faults_fire dinit ops ->
  ops_ok [] (strip ops) -> history_ok (strip ops) ->
  map fst (completed ops (dfrun dinit ops)) = run (init true) (strip ops).
Proof. exact DFaultHist.dfrun_refines_store. Qed.
Print Assumptions c07_retry_refines_store.

(* every failed attempt returns an error *)
Theorem c07_failed_attempts_err : forall ops s i k torn,
  faults_fire s ops -> nth_error ops i = Some (FFlushFail k torn) ->
  exists f, nth_error (dfrun s ops) i = Some (RErr, f).
Proof. exact DFaultHist.failed_attempts_err. Qed.
Print Assumptions c07_failed_attempts_err.

(* the hypotheses are satisfiable: a history with three failed attempts *)
Theorem c07_retry_nonvacuous : exists ops, retried ops /\ faults_fire dinit ops /\
  (2 <= length (filter (fun o => match o with FFlushFail _ _ => true | _ => false end) ops))%nat /\
  ops_ok [] (strip ops) /\ history_ok (strip ops).
Proof. exact DFaultHist.ex_retried. Qed.
Print Assumptions c07_retry_nonvacuous.

(* About the Go source itself.  Generated.g_code is rewritten from the .go files by tools/gen on every run; the statements
   below are written by hand (Dec*.v, over the definitions of DecBase.v) and say what that code has at these points: the
   decisions the model takes there are the evaluations of the conditions of the Go source, for all values of their
   variables. *)
From GK Require Import GExpr Generated DecBase DecWrite DecPublish.
From Coq Require Import String.

(* Flush writes only what is not yet persisted (Disk.write_items / write_nodes skip persisted nodes and items) *)
Theorem c07_write_skips_persisted_is_source :
  exists c1 c2, decisions "Collection.writeItems" "nloc" = [c1] /\ decisions "Collection.writeNodes" "nloc" = [c2] /\
    forall isnil persisted : bool,
      let rho := upd (upd env0 "nloc" (b2z (negb isnil))) "nloc.Loc().isEmpty()" (b2z (negb persisted)) in
      gtrue rho c1 = Some (isnil || persisted) /\ gtrue rho c2 = Some (isnil || persisted).
Proof. exact DecWrite.write_skips_persisted. Qed.
Print Assumptions c07_write_skips_persisted_is_source.

Theorem c07_item_written_once_is_source :
  exists c, hd_error (conds 400 (body "itemLoc.write")) = Some c /\
    forall empty : bool, gtrue (upd env0 "iloc.Loc().isEmpty()" (b2z empty)) c = Some empty.
Proof. exact DecWrite.item_written_once. Qed.
Print Assumptions c07_item_written_once_is_source.

Theorem c07_node_written_once_is_source :
  exists c, hd_error (conds 400 (body "nodeLoc.write")) = Some c /\
    forall notnil empty : bool, gtrue (upd (upd env0 "nloc" (b2z notnil)) "loc.isEmpty()" (b2z empty)) c = Some (notnil && empty).
Proof. exact DecWrite.node_written_once. Qed.
Print Assumptions c07_node_written_once_is_source.

(* FAILED FLUSH CALLS ANYWHERE IN A HISTORY (DFaultRefine.v: the refinement relation of C02 generalised to a dirty tail
   beyond the last root record and junk beyond the store size).  fhistory_ok is a boolean evaluated along the faulted
   byte-level run: the side conditions of C02, every planned fault fires, no look-alike root record in the torn bytes,
   no FlushRevert while the store is dirty (known finding revert-after-failed-flush, reproduced by the model:
   c07_dirty_revert_refuted), and no re-open of a file that holds bytes but no completed Flush (the documented
   "no roots" error: c07_first_flush_reopen_refuted). *)
From GK Require Import DFaultRefineAux DFaultRefine.

Theorem c07_failed_flush_invisible_anywhere :
  forall fops,
  ops_ok [] (strip fops) -> fhistory_ok fops ->
  map fst (completed fops (dfrun dinit fops)) = run (init true) (strip fops).
Proof. exact DFaultRefine.dfrun_refines_store_general. Qed.
Print Assumptions c07_failed_flush_invisible_anywhere.

Theorem c07_failed_attempts_err_anywhere :
  forall fops i k torn,
  fhistory_ok fops -> nth_error fops i = Some (FFlushFail k torn) ->
  exists f, nth_error (dfrun dinit fops) i = Some (RErr, f).
Proof. exact DFaultRefine.failed_attempts_err_general. Qed.
Print Assumptions c07_failed_attempts_err_anywhere.

Theorem c07_anywhere_nonvacuous :
  exists fops, fhistory_ok fops /\ ops_ok [] (strip fops) /\
    (exists k t, In (FFlushFail k t) fops) /\ ~ DFaultHist.retried fops.
Proof. exact DFaultRefine.ex_general. Qed.
Print Assumptions c07_anywhere_nonvacuous.

Theorem c07_dirty_revert_refuted :
  ops_ok [] (strip cex_revert) /\
  map fst (completed cex_revert (dfrun dinit cex_revert)) =
    [ROk; ROk; ROk; ROk; ROk; ROk; ROk; RVal (Some [118; 50]%N)] /\
  run (init true) (strip cex_revert) = [ROk; ROk; ROk; ROk; ROk; ROk; ROk; RVal None] /\
  fhist_okb dinit 0 (firstn 7 cex_revert) = true /\ fhist_okb dinit 0 cex_revert = false.
Proof. exact DFaultRefine.dirty_revert_excluded. Qed.
Print Assumptions c07_dirty_revert_refuted.

Theorem c07_first_flush_reopen_refuted :
  ops_ok [] (strip cex_reopen) /\
  map fst (completed cex_reopen (dfrun dinit cex_reopen)) = [ROk; ROk; RErr] /\
  run (init true) (strip cex_reopen) = [ROk; ROk; ROk] /\
  fhist_okb dinit 0 (firstn 3 cex_reopen) = true /\ fhist_okb dinit 0 cex_reopen = false.
Proof. exact DFaultRefine.failed_first_flush_reopen. Qed.
Print Assumptions c07_first_flush_reopen_refuted.

(* A FAILING ReadAt (LazyFault.v): a key-only lookup on a store just opened whose k-th ReadAt fails, and the retried
   call; compared call by call with the implementation under fault injection *)
From GK Require Import Lazy LazyProofs LazyMut LazyMutProofs LazyFault LazyFaultProofs.

Theorem c07_read_fault_prefix :
  forall ts k s,
  (k < List.length (reads_of s ts))%nat ->
  fst (fst (run_fault k s ts)) = firstn (S k) (reads_of s ts) /\ snd (run_fault k s ts) = true.
Proof. exact LazyFaultProofs.run_fault_prefix. Qed.
Print Assumptions c07_read_fault_prefix.

Theorem c07_read_fault_none :
  forall ts k s,
  (List.length (reads_of s ts) <= k)%nat ->
  fst (fst (run_fault k s ts)) = reads_of s ts /\ snd (run_fault k s ts) = false.
Proof. exact LazyFaultProofs.run_fault_none. Qed.
Print Assumptions c07_read_fault_none.

Theorem c07_retry_reads_the_rest :
  forall ts k s,
  (k < List.length (reads_of s ts))%nat ->
  let s' := snd (fst (run_fault k s ts)) in
  exists m : nat, (m <= k)%nat /\ (k - m <= 1)%nat /\
    reads_of s ts = firstn m (reads_of s ts) ++ reads_of s' ts.
Proof. exact LazyFaultProofs.retry_reads_the_rest. Qed.
Print Assumptions c07_retry_reads_the_rest.

Theorem c07_read_fault_key_only :
  forall cmp t key k,
  let '(attempt, retry, _) := get_fault_reads cmp t key k in
  Forall (fun r => in_node t r \/ in_keypart t r) attempt /\
  Forall (fun r => in_node t r \/ in_keypart t r) retry.
Proof. exact LazyFaultProofs.get_fault_key_only. Qed.
Print Assumptions c07_read_fault_key_only.

Theorem c07_read_fault_from_file :
  forall cmp f t b key k,
  rep f t -> persisted t -> below t b -> (Treap.size t <= S (List.length f))%nat ->
  get_fault_file cmp f (root_loc t) b key k = Some (get_fault_reads cmp t key k).
Proof. exact LazyFaultProofs.get_fault_file_spec. Qed.
Print Assumptions c07_read_fault_from_file.

(* ORDER OF EFFECTS in the source (Generated.g_code, regenerated on every run): Store.size and the recorded location
   move only after every WriteAt of a record; mutations publish only through rootCAS after the whole rebuild and
   restore the marks when it failed *)

Theorem c07_item_write_order_is_source :
  let l := call_list "itemLoc.write" in
  before "c.store.callbacks.BeforeItemWrite" "atomic.LoadInt64" l = true /\
  before "atomic.LoadInt64" "c.store.file.WriteAt" l = true /\
  before "c.store.file.WriteAt" "c.store.ItemValWrite" l = true /\
  before "c.store.ItemValWrite" "atomic.StoreInt64" l = true /\
  before "atomic.StoreInt64" "iloc.setLoc" l = true /\
  before "iItem.NumValBytes" "c.store.file.WriteAt" l = true /\
  before "c.store.callbacks.BeforeItemWrite" "iItem.NumValBytes" l = true.
Proof. exact DecWrite.item_write_order. Qed.
Print Assumptions c07_item_write_order_is_source.

Theorem c07_node_write_order_is_source :
  let l := call_list "nodeLoc.write" in
  before "o.getSize" "o.file.WriteAt" l = true /\
  before "o.file.WriteAt" "o.setSize" l = true /\
  before "o.setSize" "nloc.setLoc" l = true.
Proof. exact DecWrite.node_write_order. Qed.
Print Assumptions c07_node_write_order_is_source.

Theorem c07_mutation_publish_order_is_source :
  before "t.rootAddRef" "t.store.union" (call_list "Collection.SetItem") = true /\
  before "t.store.union" "t.unmarkReclaimable" (call_list "Collection.SetItem") = true /\
  before "t.store.union" "t.rootCAS" (call_list "Collection.SetItem") = true /\
  before "t.rootAddRef" "t.store.split" (call_list "Collection.Delete") = true /\
  before "t.store.split" "t.store.join" (call_list "Collection.Delete") = true /\
  before "t.store.join" "t.rootCAS" (call_list "Collection.Delete") = true /\
  count_occ string_dec (call_list "Collection.Delete") "t.unmarkReclaimable" = 2%nat /\
  count_occ string_dec (call_list "Collection.SetItem") "t.rootCAS" = 1%nat /\
  count_occ string_dec (call_list "Collection.Delete") "t.rootCAS" = 1%nat.
Proof. exact DecPublish.mutation_publish_order. Qed.
Print Assumptions c07_mutation_publish_order_is_source.

From GK Require Import DecSites.
(* WHERE Store.size moves: the three record writers, the root scan, FlushRevert's step; never Flush itself *)
Theorem c07_size_update_sites_are_source :
  sites "atomic.StoreInt64" = ["Store.readRoots"; "Store.scanBackwardsForMagicEnd"; "Store.setSize"; "Store.writeRoots"; "itemLoc.write"] /\
  sites "atomic.AddInt64" = ["Store.FlushRevert"; "Store.readRootsScan"; "Store.scanBackwardsForMagicEnd"] /\
  sites "setSize" = ["nodeLoc.write"].
Proof. exact DecSites.size_update_sites. Qed.
Print Assumptions c07_size_update_sites_are_source.

(* the reclaim marks a failed mutation left are cleared wherever they are: unmarkReclaimable walks the whole loaded tree
   (no early stop at an unmarked node), one lock section per node, released before it descends *)
From GK Require Import DecMarks.
Theorem c07_unmark_walks_the_whole_tree_is_source :
  body "Collection.unmarkReclaimable" =
    [SIf [] (GCall "nloc.isEmpty" []) [SReturn []] [];
     SAssign [GVar "n"] ":=" [GCall "nloc.Node" []];
     SIf [] (GBin "==" (GVar "n") GNil) [SReturn []] [];
     SExpr (GCall "t.rootLock.Lock" []);
     SIf [] (GBin "==" (GVar "n.next") (GVar "reclaimMark")) [SAssign [GVar "n.next"] "=" [GNil]] [];
     SExpr (GCall "t.rootLock.Unlock" []);
     SExpr (GCall "t.unmarkReclaimable" [GUn "&" (GVar "n.left"); GVar "reclaimMark"]);
     SExpr (GCall "t.unmarkReclaimable" [GUn "&" (GVar "n.right"); GVar "reclaimMark"])] /\
  body "Collection.markReclaimable" =
    [SExpr (GCall "t.rootLock.Lock" []);
     SDefer (GCall "t.rootLock.Unlock" []);
     SIf [] (GBin "||" (GBin "||" (GBin "==" (GVar "n") GNil) (GBin "!=" (GVar "n.next") GNil))
                       (GBin "==" (GVar "n") (GVar "reclaimMark")))
       [SReturn []] [];
     SAssign [GVar "n.next"] "=" [GVar "reclaimMark"]].
Proof. exact DecMarks.unmark_walks_the_whole_tree. Qed.
Print Assumptions c07_unmark_walks_the_whole_tree_is_source.
