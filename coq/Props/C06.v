(* C06 — range visits deliver exactly the requested key range, in order. *)
From GK Require Import Base Order Treap TreapSpec Store StoreSpec StoreRefine.

(* ascending: exactly the first b+1 items (b = number of times the visitor answered true)
   of those with key >= target, in ascending order, each with its true depth *)
Theorem c06_ascend : forall cmp, cmp_laws cmp -> forall t, bst cmp t -> forall target d b,
  fst (fst (visit cmp true t target d b)) =
  firstn (S b) (filter (fun x => match cmp target (ikey (fst x)) with Gt => false | _ => true end) (depths t d)).
Proof. exact TreapSpec.visit_asc_spec. Qed.
Print Assumptions c06_ascend.

(* descending: exactly those with key < target, in descending order *)
Theorem c06_descend : forall cmp, cmp_laws cmp -> forall t, bst cmp t -> forall target d b,
  fst (fst (visit cmp false t target d b)) =
  firstn (S b) (filter (fun x => match cmp target (ikey (fst x)) with Gt => true | _ => false end) (rev (depths t d))).
Proof. exact TreapSpec.visit_desc_spec. Qed.
Print Assumptions c06_descend.

(* the items of (depths t d), in order, are the sorted items of the collection; the second
   components are the depths of the nodes holding them *)
Theorem c06_depths_are_items : forall t d, map fst (depths t d) = elems t.
Proof. exact TreapSpec.depths_elems. Qed.
Print Assumptions c06_depths_are_items.

(* at the level of whole histories (all visit variants are the same model call): the delivered
   (key, value, priority) sequences are those of the sorted-list specification *)
Theorem c06_history : forall file ops, ops_ok [] ops ->
  map erase (run (init file) ops) = map erase (srun (sinit file) ops).
Proof. exact StoreRefine.c01_refines_sorted_map. Qed.
Print Assumptions c06_history.

(* About the Go source itself.  Generated.g_code is rewritten from the .go files by tools/gen on every run; the statements
   below are written by hand (Dec*.v, over the definitions of DecBase.v) and say what that code has at these points: the
   decisions the model takes there are the evaluations of the conditions of the Go source, for all values of their
   variables. *)
From GK Require Import GExpr Generated DecBase DecVisit.
From Coq Require Import String.

(* ascendChoice / descendChoice are the choices of Treap.visit *)
Theorem c06_ascend_choice_is_source :
  exists c, choice_of "ascendChoice" = Some c /\
    forall o : comparison, gtrue (upd env0 "cmp" (cmpz o)) c = Some (match o with Gt => false | _ => true end).
Proof. exact DecVisit.ascend_choice_decision. Qed.
Print Assumptions c06_ascend_choice_is_source.
Theorem c06_descend_choice_is_source :
  exists c, choice_of "descendChoice" = Some c /\
    forall o : comparison, gtrue (upd env0 "cmp" (cmpz o)) c = Some (match o with Gt => true | _ => false end).
Proof. exact DecVisit.descend_choice_decision. Qed.
Print Assumptions c06_descend_choice_is_source.

(* visitNodes stops as soon as the visitor answers false *)
Theorem c06_visitor_stop_is_source :
  exists c, decisions "Store.visitNodes" "visitor" = [c] /\
    forall answer : bool, gtrue (upd env0 "visitor(nItem,depth)" (b2z answer)) c = Some (negb answer).
Proof. exact DecVisit.visitor_stop_decision. Qed.
Print Assumptions c06_visitor_stop_is_source.

Theorem c06_visit_item_reads_are_source :
  filter (fun c => String.eqb (fst c) "nItemLoc.read") (calls_a 400 (body "Store.visitNodes")) =
  [("nItemLoc.read", [GVar "t"; GVar "false"]); ("nItemLoc.read", [GVar "t"; GVar "withValue"])].
Proof. exact DecVisit.visit_item_reads. Qed.
Print Assumptions c06_visit_item_reads_are_source.

From GK Require Import DecEvict.
(* a visit drops the cached items of the nodes it leaves WHOLE, never modifying an item other versions may share *)
Theorem c06_visit_evicts_whole_items_is_source :
  In "func(evictNode *node) {  if i := evictNode.Evict(); i != nil {   o.ItemDecRef(t, i)  } }" (calls 400 (body "Store.visitNodes")) /\
  (exists c, hd_error (conds 400 (body "Store.visitNodes")) = Some c) /\
  count_occ string_dec (calls 400 (body "Store.visitNodes")) "nNode.Evict" = 0%nat /\
  List.length (List.filter (has_sub "Evict") (calls 400 (body "Store.visitNodes"))) = 1%nat.
Proof. exact DecEvict.visit_evicts_whole_items. Qed.
Print Assumptions c06_visit_evicts_whole_items_is_source.

Theorem c06_node_evict_is_source :
  body "node.Evict" =
    [SIf [] (GUn "!" (GCall "n.item.Loc().isEmpty" []))
       [SAssign [GVar "i"] ":=" [GCall "n.item.Item" []];
        SIf [] (GBin "&&" (GBin "!=" (GVar "i") GNil) (GCall "n.item.casItem" [GVar "i"; GNil]))
          [SReturn [GVar "i"]] []] [];
     SReturn [GNil]].
Proof. exact DecEvict.node_evict_is_whole. Qed.
Print Assumptions c06_node_evict_is_source.
