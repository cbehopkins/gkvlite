(* C14 — files conform to the v4 layout and decode independently to the flushed state. *)
From GK Require Import Base Treap TreapSpec Store Codec CodecProofs Disk DiskProofs Generated Layout.

(* the constants and field orders the Go source uses NOW (regenerated on every run) are those of layout version 4 *)
Theorem c14_layout_is_v4 : generated_layout = v4_layout.
Proof. exact Layout.layout_is_v4. Qed.
Print Assumptions c14_layout_is_v4.

(* codec round trips: self-delimiting item records, fixed-size node records, the root map, framed root records *)
Theorem c14_item_roundtrip : forall f o it, item_ok it -> 0 <= o ->
  read_at f o (item_loc_len it) = Some (enc_item it) -> dec_item f (mkPloc o (item_loc_len it)) = Some it.
Proof. exact CodecProofs.dec_item_enc. Qed.
Print Assumptions c14_item_roundtrip.

Theorem c14_node_roundtrip : forall f o il ll rl nn nb,
  oploc_ok il -> oploc_ok ll -> oploc_ok rl -> 0 <= nn < 2 ^ 64 -> 0 <= nb < 2 ^ 64 -> 0 <= o ->
  read_at f o node_len = Some (enc_node il ll rl nn nb) ->
  dec_node f (mkPloc o node_len) = Some (mkNodeRec il ll rl nn nb).
Proof. exact CodecProofs.dec_node_enc. Qed.
Print Assumptions c14_node_roundtrip.

Theorem c14_json_roundtrip : forall m, Forall entry_ok m -> dec_json (enc_json m) = Some m.
Proof. exact CodecProofs.dec_json_enc. Qed.
Print Assumptions c14_json_roundtrip.

Theorem c14_root_roundtrip : forall f size m, Forall entry_ok m -> 0 <= size <= blen f -> size < two63 ->
  blen (enc_root m size) < two32 ->
  let r := enc_root m size in root_at (write_at f size r) (size + blen r) = Some m.
Proof. exact CodecProofs.root_at_enc. Qed.
Print Assumptions c14_root_roundtrip.

(* the independent decoder reconstructs from the last root record exactly the flushed state *)
Theorem c14_decode_flush : forall f size cs f' size' cs',
  Forall (coll_ok f size) cs -> 0 <= size <= blen f -> flush_bytes f size cs = (f', size', cs') ->
  size' < two63 -> roots_len + blen (enc_json (root_map cs')) < two32 -> blen f' = size' ->
  Forall (fun nc => NoDup (node_offs (c_tree (snd nc)))) cs ->
  decode_store f' = OpOk size' (tmap cs') /\
  contents (tmap cs') = map (fun nc => (fst nc, elems (c_tree (snd nc)))) cs /\
  agree f f' size /\ Forall (coll_ok f' size') cs' /\
  Forall (fun nc => NoDup (node_offs (c_tree (snd nc)))) cs'.
Proof. exact DiskProofs.flush_decodes_nodup. Qed.
Print Assumptions c14_decode_flush.

(* and the flushed file conforms: record lengths, items self-delimiting, children before parents, exact
   persisted aggregates, search order under each collection's comparator, names sorted *)
Theorem c14_flush_conforms : forall cmpid f size cs f' size' cs',
  Forall (coll_ok f size) cs -> 0 <= size <= blen f -> flush_bytes f size cs = (f', size', cs') ->
  size' < two63 -> roots_len + blen (enc_json (root_map cs')) < two32 -> blen f' = size' ->
  Forall (fun nc => NoDup (node_offs (c_tree (snd nc)))) cs ->
  names_b (tmap cs) = true -> Forall (coll_conf cmpid) cs -> conforms_v4 cmpid f' = true.
Proof. exact DiskProofs.flush_conforms_nodup. Qed.
Print Assumptions c14_flush_conforms.

(* About the Go source itself.  Generated.g_code is rewritten from the .go files by tools/gen on every run; the statements
   below are written by hand (Dec*.v, over the definitions of DecBase.v) and say what that code has at these points: the
   decisions the model takes there are the evaluations of the conditions of the Go source, for all values of their
   variables. *)
From GK Require Import GExpr Generated DecBase DecRecord DecWrite.
From Coq Require Import String.

(* the record checks of itemLoc.read and of the root record, and the empty location, as in Codec.v *)
Theorem c14_item_length_check_is_source :
  exists c, decisions "itemLoc.read" "ds.getLength" = [c] /\
    forall len kl vl : Z,
      gtrue (upd (upd (upd env0 "ds.getLength()" len) "uint32(keyLength)" kl) "valLength" vl) c =
      Some (negb (Z.eqb len (item_hdr_len + kl + vl))).
Proof. exact DecRecord.item_length_check_decision. Qed.
Print Assumptions c14_item_length_check_is_source.
Theorem c14_item_short_loc_is_source :
  exists c, decisions "itemLoc.read" "loc.Length" = [c] /\
    forall l : Z, gtrue (upd env0 "loc.Length" l) c = Some (Z.ltb l item_hdr_len).
Proof. exact DecRecord.item_short_loc_decision. Qed.
Print Assumptions c14_item_short_loc_is_source.
Theorem c14_ploc_is_empty_is_source :
  exists c, choice_of "ploc.isEmpty" = Some c /\
    forall o l : Z, gtrue (upd (upd (upd env0 "p" 1%Z) "p.Offset" o) "p.Length" l) c = Some (Z.eqb o 0 && Z.eqb l 0).
Proof. exact DecRecord.ploc_is_empty_decision. Qed.
Print Assumptions c14_ploc_is_empty_is_source.
Theorem c14_root_version_is_source :
  exists c, decisions "Store.validateAndSetCollections" "version" = [c] /\
    forall v : Z, gtrue (upd env0 "version" v) c = Some (negb (Z.eqb v version)).
Proof. exact DecRecord.root_version_decision. Qed.
Print Assumptions c14_root_version_is_source.
Theorem c14_root_length_is_source :
  exists c, decisions "Store.validateAndSetCollections" "length0" = [c] /\
    forall a b : Z, gtrue (upd (upd env0 "length0" a) "length" b) c = Some (negb (Z.eqb a b)).
Proof. exact DecRecord.root_length_decision. Qed.
Print Assumptions c14_root_length_is_source.

(* record writes in the source: offset taken after the before-write hook, header+key, value, then size and location *)
Theorem c14_item_write_order_is_source :
  let l := call_list "itemLoc.write" in
  before "c.store.callbacks.BeforeItemWrite" "atomic.LoadInt64" l = true /\
  before "atomic.LoadInt64" "c.store.file.WriteAt" l = true /\
  before "c.store.file.WriteAt" "c.store.ItemValWrite" l = true /\
  before "c.store.ItemValWrite" "atomic.StoreInt64" l = true /\
  before "atomic.StoreInt64" "iloc.setLoc" l = true /\
  before "iItem.NumValBytes" "c.store.file.WriteAt" l = true /\
  before "c.store.callbacks.BeforeItemWrite" "iItem.NumValBytes" l = true.
Proof. exact DecWrite.item_write_order. Qed.
Print Assumptions c14_item_write_order_is_source.

From GK Require Import DecPins.
(* the location the root record stores for a collection is read from the root node at every call (nothing cached) *)
Theorem c14_root_location_json_is_source :
  body "rootNodeLoc.MarshalJSON" =
    [SAssign [GVar "loc"] ":=" [GCall "rnl.root.Loc" []];
     SIf [] (GCall "loc.isEmpty" []) [SReturn [GCall "json.Marshal" [GVar "plocEmpty"]]] [];
     SReturn [GCall "json.Marshal" [GVar "loc"]]] /\
  body "Collection.MarshalJSON" =
    [SAssign [GVar "rnl"] ":=" [GCall "t.rootAddRef" []];
     SDefer (GCall "t.rootDecRef" [GVar "rnl"]);
     SReturn [GCall "rnl.MarshalJSON" []]].
Proof. exact DecPins.root_location_json. Qed.
Print Assumptions c14_root_location_json_is_source.
