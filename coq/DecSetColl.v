(* Re-registering a collection and copying the map of collections.  A handle that replaces an existing one shares
   its version record AND the lock that guards it (two handles counting references of one record under different
   locks race); every published map of collections is a fresh copy (a snapshot must never share the map the store
   goes on writing to). *)
From GK Require Import Base Treap Codec Blocks GExpr Generated DecBase.
From Coq Require Import ZArith NArith List String Bool Lia.
Import ListNotations.
Open Scope string_scope.
Open Scope list_scope.
Open Scope Z_scope.

Theorem set_collection_function :
  body "Store.SetCollection" =
    [SIf [] (GBin "==" (GVar "compare") GNil) [SAssign [GVar "compare"] "=" [GVar "bytes.Compare"]] [];
     SFor [] None []
       [SAssign [GVar "orig"] ":=" [GCall "s.getColl" []];
        SAssign [GVar "coll"] ":=" [GCall "copyColl" [GUn "*" (GCall "(*map[string]*Collection)" [GVar "orig"])]];
        SAssign [GVar "cnew"] ":=" [GCall "s.MakePrivateCollection" [GVar "compare"]];
        SAssign [GVar "cnew.name"] "=" [GVar "name"];
        SAssign [GVar "cold"] ":=" [GCall "[]" [GVar "coll"; GVar "name"]];
        SIf [] (GBin "!=" (GVar "cold") GNil)
          [SAssign [GVar "cnew.rootLock"] "=" [GVar "cold.rootLock"];
           SAssign [GVar "cnew.root"] "=" [GCall "cold.rootAddRef" []]] [];
        SAssign [GCall "[]" [GVar "coll"; GVar "name"]] "=" [GVar "cnew"];
        SIf [] (GCall "s.casColl" [GVar "orig"; GUn "&" (GVar "coll")])
          [SExpr (GCall "cold.closeCollection" []); SReturn [GVar "cnew"]] [];
        SExpr (GCall "cnew.closeCollection" [])]] /\
  body "copyColl" =
    [SAssign [GVar "res"] ":=" [GCall "make" [GOther "map[string]*Collection"]];
     SRange (GVar "name") (GVar "c") (GVar "orig")
       [SAssign [GCall "[]" [GVar "res"; GVar "name"]] "=" [GVar "c"]];
     SReturn [GVar "res"]].
Proof. split; vm_compute; reflexivity. Qed.
