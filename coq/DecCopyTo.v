(* Store.CopyTo: when its visitor flushes the destination, and the order of its calls (C11). *)
From GK Require Import Base Treap Codec Blocks GExpr Generated DecBase GExprFacts.
From Coq Require Import ZArith NArith List String Bool Lia.
Import ListNotations.
Open Scope string_scope.
Open Scope list_scope.
Open Scope Z_scope.

(* CopyTo flushes after every flushEvery-th item (and never when flushEvery <= 0) *)
Theorem copyto_flush_schedule :
  exists c, decisions "<lit:Store.CopyTo#1>" "flushEvery" = [c] /\
    forall fe n : Z, 0 <= n ->
      gtrue (upd (upd env0 "flushEvery" fe) "numItems" n) c = Some ((fe >? 0) && (n mod fe =? 0)).
Proof.
  eexists. split; [vm_compute; reflexivity|]. intros fe n Hn. gsimpl.
  destruct (fe >? 0) eqn:E.
  - assert (Hfe : 0 < fe) by (apply Z.gtb_lt in E; exact E).
    assert ((fe =? 0) = false) as -> by (apply Z.eqb_neq; lia).
    rewrite Z.rem_mod_nonneg by lia. cbv beta iota. destruct (n mod fe =? 0); reflexivity.
  - reflexivity.
Qed.

(* CopyTo: one SetCollection per source collection with the source's comparator, a closing Flush guarded only by
   flushEvery > 0.  Statement 4 of the body is the loop `for _, name := range collNames(coll)`. *)
Theorem copyto_structure :
  In (GBin ">" (GVar "flushEvery") (GInt 0)) (conds 400 (body "Store.CopyTo")) /\
  before "dstStore.SetCollection" "srcColl.VisitItemsAscendEx" (call_list "Store.CopyTo") = true /\
  before "srcColl.VisitItemsAscendEx" "dstStore.Flush" (call_list "Store.CopyTo") = true /\
  In (SAssign [GVar "dstColl"] ":=" [GCall "dstStore.SetCollection" [GVar "name"; GVar "srcColl.compare"]])
     (match nth_error (body "Store.CopyTo") 4 with Some (SRange _ _ _ b) => b | _ => [] end).
Proof.
  repeat apply conj; try (vm_compute; reflexivity).
  - find_in (mentions "flushEvery").
  - find_in (assigns (fun l => String.eqb (gshow l) "dstColl")).
Qed.

