(* Collection.writeItems / writeNodes, itemLoc.write and nodeLoc.write: what is skipped, and the order of WriteAt, size
   update and recording of the location (C02, C07, C09, C14). *)
From GK Require Import Base Treap Codec Blocks GExpr Generated DecBase.
From Coq Require Import ZArith NArith List String Bool Lia.
Import ListNotations.
Open Scope string_scope.
Open Scope list_scope.
Open Scope Z_scope.

(* Flush writes only what is not yet persisted (Disk.write_items / write_nodes skip T (Some p); an item with a
   location is not written again: DiskFault's retry theorem rests on this) *)
Theorem write_skips_persisted :
  exists c1 c2, decisions "Collection.writeItems" "nloc" = [c1] /\ decisions "Collection.writeNodes" "nloc" = [c2] /\
    forall isnil persisted : bool,
      let rho := upd (upd env0 "nloc" (b2z (negb isnil))) "nloc.Loc().isEmpty()" (b2z (negb persisted)) in
      gtrue rho c1 = Some (isnil || persisted) /\ gtrue rho c2 = Some (isnil || persisted).
Proof. do 2 eexists. split; [vm_compute; reflexivity|]. split; [vm_compute; reflexivity|]. intros [|] [|]; split; reflexivity. Qed.

Theorem item_written_once :
  exists c, hd_error (conds 400 (body "itemLoc.write")) = Some c /\
    forall empty : bool, gtrue (upd env0 "iloc.Loc().isEmpty()" (b2z empty)) c = Some empty.
Proof. eexists. split; [vm_compute; reflexivity|]. intros [|]; reflexivity. Qed.

Theorem node_written_once :
  exists c, hd_error (conds 400 (body "nodeLoc.write")) = Some c /\
    forall notnil empty : bool, gtrue (upd (upd env0 "nloc" (b2z notnil)) "loc.isEmpty()" (b2z empty)) c = Some (notnil && empty).
Proof. eexists. split; [vm_compute; reflexivity|]. intros [|] [|]; reflexivity. Qed.

(* itemLoc.write: the before-write hook runs first, THEN the offset is taken, the header+key are written, the value is
   written, and only then Store.size advances and the location is recorded (DiskFault.write_item_f) *)
Theorem item_write_order :
  let l := call_list "itemLoc.write" in
  before "c.store.callbacks.BeforeItemWrite" "atomic.LoadInt64" l = true /\
  before "atomic.LoadInt64" "c.store.file.WriteAt" l = true /\
  before "c.store.file.WriteAt" "c.store.ItemValWrite" l = true /\
  before "c.store.ItemValWrite" "atomic.StoreInt64" l = true /\
  before "atomic.StoreInt64" "iloc.setLoc" l = true /\
  before "iItem.NumValBytes" "c.store.file.WriteAt" l = true /\
  before "c.store.callbacks.BeforeItemWrite" "iItem.NumValBytes" l = true.
Proof. intro l. repeat apply conj; vm_compute; reflexivity. Qed.

(* nodeLoc.write: offset, WriteAt, then size, then the location (DiskFault.write_nodes_f) *)
Theorem node_write_order :
  let l := call_list "nodeLoc.write" in
  before "o.getSize" "o.file.WriteAt" l = true /\
  before "o.file.WriteAt" "o.setSize" l = true /\
  before "o.setSize" "nloc.setLoc" l = true.
Proof. intro l. repeat apply conj; vm_compute; reflexivity. Qed.

