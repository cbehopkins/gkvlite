(* LazyFaultProofs.v — the fault model of LazyFault.v (a key-only lookup when ONE ReadAt call fails, C07): the
   failed call issues a prefix of the fault-free calls, what it read completely stays in memory, and the retried
   call reads exactly the rest. *)
From GK Require Import Base Treap TreapSpec Codec CodecProofs Disk DiskProofs Lazy LazyProofs LazyVisit LazyMut LazyMutProofs LazyFault.
From Coq Require Import Lia ZArith NArith List Bool.
Import ListNotations.
Open Scope Z_scope.

Lemma toff_eq x : LazyFault.toff x = LazyMutProofs.toff x.
Proof. destruct x; reflexivity. Qed.

Lemma treads_eq x : treads x = touch_reads x.
Proof. destruct x; reflexivity. Qed.

Lemma run_fault_cons k s x r :
  run_fault k s (x :: r) =
  if seen (LazyMutProofs.toff x) s then run_fault k s r else
  if (k <? length (touch_reads x))%nat then (firstn (S k) (touch_reads x), s, true)
  else let '(rr, s', f) := run_fault (k - length (touch_reads x)) (LazyMutProofs.toff x :: s) r in
       (touch_reads x ++ rr, s', f).
Proof. rewrite <- toff_eq, <- treads_eq. reflexivity. Qed.

Lemma touch_reads_len x : (1 <= length (touch_reads x) <= 2)%nat.
Proof. destruct x; cbn; lia. Qed.

Lemma seen_cons_self o s : seen o (o :: s) = true.
Proof. apply seen_spec. now left. Qed.

(* the calls issued are the first k+1 fault-free calls; the fault fires when there are that many *)
Lemma run_fault_spec ts : forall k s,
  fst (fst (run_fault k s ts)) = firstn (S k) (reads_of s ts) /\
  snd (run_fault k s ts) = (k <? length (reads_of s ts))%nat.
Proof.
  induction ts as [|x r IH]; intros k s; [split; reflexivity|].
  rewrite reads_of_cons, run_fault_cons.
  destruct (seen (LazyMutProofs.toff x) s); [apply IH|].
  rewrite app_length, firstn_app.
  destruct (Nat.ltb_spec k (length (touch_reads x))) as [Hlt|Hge].
  - cbn [fst snd]. replace (S k - length (touch_reads x))%nat with O by lia.
    rewrite firstn_O, app_nil_r. split; [reflexivity|]. symmetry. apply Nat.ltb_lt. lia.
  - destruct (IH (k - length (touch_reads x))%nat (LazyMutProofs.toff x :: s)) as [A B].
    destruct (run_fault (k - length (touch_reads x)) (LazyMutProofs.toff x :: s) r) as [[rr s'] f].
    cbn [fst snd] in *. subst. rewrite (firstn_all2 (n := S k)) by lia.
    replace (S k - length (touch_reads x))%nat with (S (k - length (touch_reads x))) by lia.
    split; [reflexivity|].
    destruct (Nat.ltb_spec (k - length (touch_reads x)) (length (reads_of (LazyMutProofs.toff x :: s) r)));
      symmetry; [apply Nat.ltb_lt|apply Nat.ltb_ge]; lia.
Qed.

Theorem run_fault_none ts : forall k s,
  (length (reads_of s ts) <= k)%nat ->
  fst (fst (run_fault k s ts)) = reads_of s ts /\ snd (run_fault k s ts) = false.
Proof.
  intros k s H. destruct (run_fault_spec ts k s) as [-> ->].
  rewrite firstn_all2 by lia. split; [reflexivity|]. now apply Nat.ltb_ge.
Qed.

Theorem run_fault_prefix ts : forall k s,
  (k < length (reads_of s ts))%nat ->
  fst (fst (run_fault k s ts)) = firstn (S k) (reads_of s ts) /\ snd (run_fault k s ts) = true.
Proof.
  intros k s H. destruct (run_fault_spec ts k s) as [-> ->]. split; [reflexivity|]. now apply Nat.ltb_lt.
Qed.

(* the memory only grows, and only by touched records *)
Theorem run_fault_seen ts : forall k s o,
  In o (snd (fst (run_fault k s ts))) -> In o s \/ exists x, In x ts /\ LazyFault.toff x = o.
Proof.
  induction ts as [|x r IH]; intros k s o H; [left; exact H|].
  rewrite run_fault_cons in H.
  destruct (seen (LazyMutProofs.toff x) s).
  { destruct (IH k s o H) as [A|(y & Hy & E)]; [left; exact A|]. right. exists y. split; [now right|exact E]. }
  destruct (k <? length (touch_reads x))%nat; [left; exact H|].
  specialize (IH (k - length (touch_reads x))%nat (LazyMutProofs.toff x :: s) o).
  destruct (run_fault (k - length (touch_reads x)) (LazyMutProofs.toff x :: s) r) as [[rr s'] f].
  cbn [fst snd] in *. destruct (IH H) as [[A|A]|(y & Hy & E)].
  - right. exists x. split; [now left|rewrite toff_eq; exact A].
  - left. exact A.
  - right. exists y. split; [now right|exact E].
Qed.

Theorem run_fault_seen_mono ts : forall k s o, In o s -> In o (snd (fst (run_fault k s ts))).
Proof.
  induction ts as [|x r IH]; intros k s o H; [exact H|].
  rewrite run_fault_cons.
  destruct (seen (LazyMutProofs.toff x) s); [apply IH; exact H|].
  destruct (k <? length (touch_reads x))%nat; [exact H|].
  specialize (IH (k - length (touch_reads x))%nat (LazyMutProofs.toff x :: s) o).
  destruct (run_fault (k - length (touch_reads x)) (LazyMutProofs.toff x :: s) r) as [[rr s'] f].
  cbn [fst snd] in *. apply IH. now right.
Qed.

(* C07: the retried call reads what the failed call had not completely read; only the record whose read was
   interrupted (at most one call of it had succeeded) is read again from its start *)
Theorem retry_reads_the_rest ts : forall k s,
  (k < length (reads_of s ts))%nat ->
  let s' := snd (fst (run_fault k s ts)) in
  exists m : nat, (m <= k)%nat /\ (k - m <= 1)%nat /\
    reads_of s ts = firstn m (reads_of s ts) ++ reads_of s' ts.
Proof.
  induction ts as [|x r IH]; intros k s H; [cbn in H; lia|].
  cbv zeta.
  (* x is in memory after the call whenever it was before, or was added *)
  rewrite (reads_of_cons (snd (fst (run_fault k s (x :: r)))) x r).
  rewrite (reads_of_cons s x r) in *.
  pose proof (run_fault_seen_mono (x :: r) k s (LazyMutProofs.toff x)) as Hmono.
  rewrite run_fault_cons in *.
  destruct (seen (LazyMutProofs.toff x) s) eqn:Es.
  { apply seen_spec in Es. apply Hmono in Es. apply seen_spec in Es. rewrite Es.
    apply (IH k s H). }
  clear Hmono. rewrite app_length in H. pose proof (touch_reads_len x) as Hl.
  destruct (Nat.ltb_spec k (length (touch_reads x))) as [Hlt|Hge].
  - cbn [fst snd]. rewrite Es. exists O. split; [lia|]. split; [lia|]. reflexivity.
  - assert (Hk : (k - length (touch_reads x) < length (reads_of (LazyMutProofs.toff x :: s) r))%nat) by lia.
    pose proof (IH _ _ Hk) as IH'. cbv zeta in IH'.
    pose proof (run_fault_seen_mono r (k - length (touch_reads x))%nat (LazyMutProofs.toff x :: s)
                  (LazyMutProofs.toff x) (or_introl eq_refl)) as Hin.
    destruct (run_fault (k - length (touch_reads x)) (LazyMutProofs.toff x :: s) r) as [[rr s'] f].
    cbn [fst snd] in *. apply seen_spec in Hin. rewrite Hin.
    destruct IH' as (m & Hm1 & Hm2 & Hm3).
    exists (length (touch_reads x) + m)%nat. split; [lia|]. split; [lia|].
    rewrite firstn_app_2, <- app_assoc, <- Hm3. reflexivity.
Qed.

Theorem retry_is_suffix ts : forall k s,
  (k < length (reads_of s ts))%nat ->
  exists pre, reads_of s ts = pre ++ reads_of (snd (fst (run_fault k s ts))) ts.
Proof.
  intros k s H. destruct (retry_reads_the_rest ts k s H) as (m & _ & _ & E).
  exists (firstn m (reads_of s ts)). exact E.
Qed.

Theorem get_fault_key_only cmp t key k :
  let '(attempt, retry, _) := get_fault_reads cmp t key k in
  Forall (fun r => in_node t r \/ in_keypart t r) attempt /\
  Forall (fun r => in_node t r \/ in_keypart t r) retry.
Proof.
  unfold get_fault_reads.
  pose proof (proj1 (run_fault_spec (get_t cmp t key) k [])) as Hn.
  destruct (run_fault k [] (get_t cmp t key)) as [[attempt s'] failed].
  cbn [fst] in Hn. subst attempt.
  split; [|apply (reads_of_key_only t), get_t_in].
  pose proof (reads_of_key_only t [] _ (get_t_in cmp t key)) as H.
  rewrite <- (firstn_skipn (S k)) in H. exact (proj1 (proj1 (Forall_app _ _ _) H)).
Qed.

Theorem get_fault_file_spec cmp f t b key k :
  rep f t -> persisted t -> below t b -> (Treap.size t <= S (length f))%nat ->
  get_fault_file cmp f (root_loc t) b key k = Some (get_fault_reads cmp t key k).
Proof.
  intros Hrep Hper Hb Hs. unfold get_fault_file.
  rewrite (load_rep_file f t b Hrep Hper Hb Hs). reflexivity.
Qed.

Definition ex_tree : tree :=
  T (Some (mkPloc 100 52)) (T (Some (mkPloc 40 52)) E (Some (mkPloc 20 20)) (mkItem [97%N] [1%N] 3) 1 2 E)
    (Some (mkPloc 0 20)) (mkItem [98%N] [1%N] 9) 2 4 E.

Example ex_fault_get : exists t key, persisted t /\ (length (reads_of [] (get_t cmp_bytes t key)) = 6)%nat /\
  forall k, (k < 6)%nat -> snd (get_fault_reads cmp_bytes t key k) = true.
Proof.
  exists ex_tree, [97%N]. split; [|split].
  - unfold ex_tree. cbn [persisted]. repeat split; discriminate.
  - vm_compute. reflexivity.
  - intros k Hk. do 6 (destruct k as [|k]; [vm_compute; reflexivity|]). lia.
Qed.

(* attempt ++ retry at the fault positions 1, 2, 3 and 6: the failed call issued the first k+1 calls; the retry starts again at
   the record whose read was interrupted *)
Example ex_fault_get_shape :
  get_fault_reads cmp_bytes ex_tree [97%N] 1 =
    ([Rd 100 52; Rd 0 16], [Rd 0 16; Rd 16 1; Rd 40 52; Rd 20 16; Rd 36 1], true) /\
  get_fault_reads cmp_bytes ex_tree [97%N] 2 =
    ([Rd 100 52; Rd 0 16; Rd 16 1], [Rd 0 16; Rd 16 1; Rd 40 52; Rd 20 16; Rd 36 1], true) /\
  get_fault_reads cmp_bytes ex_tree [97%N] 3 =
    ([Rd 100 52; Rd 0 16; Rd 16 1; Rd 40 52], [Rd 40 52; Rd 20 16; Rd 36 1], true) /\
  get_fault_reads cmp_bytes ex_tree [97%N] 6 =
    ([Rd 100 52; Rd 0 16; Rd 16 1; Rd 40 52; Rd 20 16; Rd 36 1], [], false).
Proof. vm_compute. repeat split. Qed.

Print Assumptions run_fault_none.
Print Assumptions run_fault_prefix.
Print Assumptions run_fault_seen.
Print Assumptions run_fault_seen_mono.
Print Assumptions retry_reads_the_rest.
Print Assumptions retry_is_suffix.
Print Assumptions get_fault_key_only.
Print Assumptions get_fault_file_spec.
Print Assumptions ex_fault_get.
Print Assumptions ex_fault_get_shape.
