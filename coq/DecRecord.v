(* The checks on records read from the file: ploc.isEmpty, the two length checks of itemLoc.read, version and length
   fields in validateAndSetCollections, against Codec.v (C14). *)
From GK Require Import Base Treap Codec Blocks GExpr Generated DecBase GExprFacts.
From Coq Require Import ZArith NArith List String Bool Lia.
Import ListNotations.
Open Scope string_scope.
Open Scope list_scope.
Open Scope Z_scope.

(* ploc.isEmpty: a location is empty iff it is nil or offset = 0 and length = 0: what Codec.dec_ploc decodes as None *)
Theorem ploc_is_empty_decision :
  exists c, choice_of "ploc.isEmpty" = Some c /\
    forall o l : Z, gtrue (upd (upd (upd env0 "p" 1) "p.Offset" o) "p.Length" l) c = Some ((o =? 0) && (l =? 0)).
Proof.
  eexists. split; [vm_compute; reflexivity|]. intros o l. gsimpl.
  destruct (o =? 0); destruct (l =? 0); reflexivity.
Qed.

(* itemLoc.read rejects the record unless length = header + key + value, and a location shorter than the header
   (Codec.dec_item) *)
Theorem item_length_check_decision :
  exists c, decisions "itemLoc.read" "ds.getLength" = [c] /\
    forall len kl vl : Z,
      gtrue (upd (upd (upd env0 "ds.getLength()" len) "uint32(keyLength)" kl) "valLength" vl) c =
      Some (negb (len =? item_hdr_len + kl + vl)).
Proof.
  eexists. split; [vm_compute; reflexivity|]. intros len kl vl. apply gtrue_b2z. reflexivity.
Qed.

Theorem item_short_loc_decision :
  exists c, decisions "itemLoc.read" "loc.Length" = [c] /\
    forall l : Z, gtrue (upd env0 "loc.Length" l) c = Some (l <? item_hdr_len).
Proof.
  eexists. split; [vm_compute; reflexivity|]. intro l. apply gtrue_b2z. reflexivity.
Qed.

(* root record checks of validateAndSetCollections as in Codec.root_at: the version, and that the two length fields agree
   (the recorded offset is DecRoot.root_offset_decision) *)
Theorem root_version_decision :
  exists c, decisions "Store.validateAndSetCollections" "version" = [c] /\
    forall v : Z, gtrue (upd env0 "version" v) c = Some (negb (v =? version)).
Proof.
  eexists. split; [vm_compute; reflexivity|]. intro v. apply gtrue_b2z. reflexivity.
Qed.

Theorem root_length_decision :
  exists c, decisions "Store.validateAndSetCollections" "length0" = [c] /\
    forall a b : Z, gtrue (upd (upd env0 "length0" a) "length" b) c = Some (negb (a =? b)).
Proof.
  eexists. split; [vm_compute; reflexivity|]. intros a b. apply gtrue_b2z. reflexivity.
Qed.

