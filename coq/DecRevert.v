(* Store.FlushRevert: when it steps below the current root, and the order of swap, scan and Truncate (C08, C09). *)
From GK Require Import Base Treap Codec Blocks GExpr Generated DecBase GExprFacts.
From Coq Require Import ZArith NArith List String Bool Lia.
Import ListNotations.
Open Scope string_scope.
Open Scope list_scope.
Open Scope Z_scope.

(* FlushRevert steps below the current root only when the store is longer than an empty root record
   (Disk.revert_bytes: if roots_len <? size then size - 1 else size) *)
Theorem revert_step_decision :
  exists c, decisions "Store.FlushRevert" "rootsLen" = [c] /\
    forall size : Z, gtrue (upd (upd env0 "atomic.LoadInt64(&s.size)" size) "rootsLen" roots_len) c = Some (roots_len <? size).
Proof.
  eexists. split; [vm_compute; reflexivity|]. intro size. rewrite <- Z.gtb_ltb. apply gtrue_b2z. reflexivity.
Qed.

(* FlushRevert: the collections are replaced and the scan runs before the file is truncated; one Truncate *)
Theorem revert_order :
  let l := call_list "Store.FlushRevert" in
  before "s.readRootsScan" "s.file.Truncate" l = true /\
  count_occ string_dec l "s.file.Truncate" = 1%nat /\
  before "atomic.AddInt64" "s.readRootsScan" l = true.
Proof. intro l. repeat apply conj; vm_compute; reflexivity. Qed.

