(* Refcount.v — property C15: item reference counting is balanced and never
   premature.  A bookkeeping model of the reference counts that gkvlite
   reports through its ItemAlloc / ItemAddRef / ItemDecRef callbacks.
   std++ style (gmap); independent of the other files. *)
From stdpp Require Import gmap.

Local Open Scope Z_scope.

Definition item := positive.
Definition node := positive.

Record state := mkState {
  cnt : item → Z;           (* the application's counter: +1 AddRef, -1 DecRef, 1 at ItemAlloc *)
  owner : gmap node item;   (* which item each live tree node's itemLoc currently caches *)
  out : item → nat          (* references handed to the caller and not yet returned *)
}.

(* point-wise update of a total function *)
Definition upd {A} (f : item → A) (i : item) (v : A) : item → A :=
  λ j, if decide (j = i) then v else f j.
Definition add (c : item → Z) (i : item) (d : Z) : item → Z := upd c i (c i + d).

Definition init : state := mkState (λ _, 0) ∅ (λ _, 0%nat).

(* one event per place where the Go code touches an item reference *)
Inductive event :=
| EvSet (n : node) (i : item)      (* SetItem: AddRef for the new single node *)
| EvMkNode (n m : node)            (* mkNode copying node m's itemLoc into fresh node n *)
| EvFreeNode (n : node)            (* freeNode *)
| EvLoad (n : node) (i : item)     (* itemLoc.read on an uncached item: ItemAlloc *)
| EvReload (n : node) (i' : item)  (* itemLoc.read(withValue) replacing a key-only item *)
| EvEvict (n : node)               (* Evict: EvictSomeItems and the eviction inside visits *)
| EvHandOut (n : node)             (* GetItem / MinItem / MaxItem returning node n's item *)
| EvGiveBack (i : item).           (* the caller releases: ItemDecRef *)

(* a freshly allocated item: count 0, not handed out, owned by no node *)
Definition fresh (s : state) (i : item) : Prop :=
  cnt s i = 0 ∧ out s i = 0%nat ∧ map_Forall (λ _ j, j ≠ i) (owner s).

Global Instance fresh_dec s i : Decision (fresh s i).
Proof. unfold fresh. apply _. Defined.

(* drop node n's reference, if it has one (freeNode and Evict) *)
Definition release (s : state) (n : node) : state :=
  match owner s !! n with
  | Some i => mkState (add (cnt s) i (-1)) (delete n (owner s)) (out s)
  | None => s
  end.

Definition step (s : state) (e : event) : option state :=
  match e with
  | EvSet n i =>
    match owner s !! n with
    | None => Some (mkState (add (cnt s) i 1) (<[n:=i]> (owner s)) (out s))
    | Some _ => None
    end
  | EvMkNode n m =>
    match owner s !! n with
    | None =>
      match owner s !! m with
      | Some i => Some (mkState (add (cnt s) i 1) (<[n:=i]> (owner s)) (out s))
      | None => Some s
      end
    | Some _ => None
    end
  | EvFreeNode n => Some (release s n)
  | EvLoad n i =>
    match owner s !! n with
    | None =>
      if decide (fresh s i)
      then Some (mkState (upd (cnt s) i 1) (<[n:=i]> (owner s)) (out s))
      else None
    | Some _ => None
    end
  | EvReload n i' =>
    match owner s !! n with
    | Some i =>
      if decide (fresh s i')
      then Some (mkState (add (upd (cnt s) i' 1) i (-1)) (<[n:=i']> (owner s)) (out s))
      else None
    | None => None
    end
  | EvEvict n => Some (release s n)
  | EvHandOut n =>
    match owner s !! n with
    | Some i => Some (mkState (add (cnt s) i 1) (owner s) (upd (out s) i (S (out s i))))
    | None => None
    end
  | EvGiveBack i =>
    if decide (0 < out s i)%nat
    then Some (mkState (add (cnt s) i (-1)) (owner s) (upd (out s) i (pred (out s i))))
    else None
  end.

Inductive reachable : state → Prop :=
| reach_init : reachable init
| reach_step s e s' : reachable s → step s e = Some s' → reachable s'.

Fixpoint run (s : state) (es : list event) : option state :=
  match es with
  | [] => Some s
  | e :: es' => match step s e with Some s' => run s' es' | None => None end
  end.

(* the number of nodes whose itemLoc caches item i *)
Definition nown (o : gmap node item) (i : item) : nat :=
  size (filter (λ p : node * item, p.2 = i) o).

Lemma nown_empty i : nown ∅ i = 0%nat.
Proof. unfold nown. by rewrite map_filter_empty, map_size_empty. Qed.

Lemma nown_insert_fresh o n j i : o !! n = None →
  nown (<[n:=j]> o) i = ((if decide (j = i) then 1 else 0) + nown o i)%nat.
Proof.
  intros Hn. unfold nown. rewrite map_filter_insert. simpl.
  destruct (decide (j = i)) as [->|Hne].
  - rewrite map_size_insert_None; [done|].
    apply map_filter_lookup_None. by left.
  - by rewrite delete_notin.
Qed.

Lemma nown_delete o n j i : o !! n = Some j →
  nown o i = ((if decide (j = i) then 1 else 0) + nown (delete n o) i)%nat.
Proof.
  intros Hn. rewrite <-(insert_delete o n j Hn) at 1.
  apply nown_insert_fresh. apply lookup_delete.
Qed.

Lemma nown_replace o n j j' i : o !! n = Some j →
  (nown (<[n:=j']> o) i + (if decide (j = i) then 1 else 0) =
   (if decide (j' = i) then 1 else 0) + nown o i)%nat.
Proof.
  intros Hn. rewrite <-insert_delete_insert.
  rewrite nown_insert_fresh by apply lookup_delete.
  rewrite (nown_delete o n j i Hn). lia.
Qed.

Lemma nown_pos o n i : o !! n = Some i → (1 ≤ nown o i)%nat.
Proof. intros Hn. rewrite (nown_delete o n i i Hn). rewrite decide_True by done. lia. Qed.

Lemma nown_zero o i : map_Forall (λ _ j, j ≠ i) o → nown o i = 0%nat.
Proof.
  intros H. unfold nown.
  assert (filter (λ p : node * item, p.2 = i) o = ∅) as ->; [|apply map_size_empty].
  apply map_filter_empty_iff. intros n j Hn. simpl. by apply (H n j).
Qed.

Lemma nown_zero_inv o i : nown o i = 0%nat → map_Forall (λ _ j, j ≠ i) o.
Proof.
  intros H n j Hn ->. pose proof (nown_pos o n i Hn). lia.
Qed.

Lemma upd_at {A} (f : item → A) i v j : upd f i v j = if decide (i = j) then v else f j.
Proof. unfold upd. repeat case_decide; congruence. Qed.

Lemma add_at c i d j : add c i d j = c j + (if decide (i = j) then d else 0).
Proof. unfold add. rewrite upd_at. case_decide; [subst|]; lia. Qed.

Lemma release_Some s n i : owner s !! n = Some i →
  release s n = mkState (add (cnt s) i (-1)) (delete n (owner s)) (out s).
Proof. unfold release. by intros ->. Qed.

Lemma release_out s n : out (release s n) = out s.
Proof. unfold release. by destruct (owner s !! n). Qed.

Lemma step_load_fresh s n i : owner s !! n = None → fresh s i →
  step s (EvLoad n i) = Some (mkState (upd (cnt s) i 1) (<[n:=i]> (owner s)) (out s)).
Proof. intros Hn Hf. simpl. by rewrite Hn, decide_True. Qed.

Definition inv (s : state) : Prop :=
  ∀ i, cnt s i = Z.of_nat (nown (owner s) i) + Z.of_nat (out s i).

Lemma inv_own s n i : inv s → owner s !! n = None →
  inv (mkState (add (cnt s) i 1) (<[n:=i]> (owner s)) (out s)).
Proof.
  intros H Hn j. specialize (H j). simpl.
  rewrite add_at, nown_insert_fresh by done. case_decide; lia.
Qed.

Lemma inv_release s n : inv s → inv (release s n).
Proof.
  intros H j. specialize (H j). unfold release. destruct (owner s !! n) as [i|] eqn:Hn; [|done].
  simpl. rewrite add_at. rewrite (nown_delete _ _ _ j Hn) in H. case_decide; lia.
Qed.

Lemma inv_step s e s' : inv s → step s e = Some s' → inv s'.
Proof.
  intros H Hs. destruct e as [n i|n m|n|n i|n i'|n|n|i]; simpl in Hs.
  - destruct (owner s !! n) eqn:Hn; [done|]. injection Hs as <-. by apply inv_own.
  - destruct (owner s !! n) eqn:Hn; [done|].
    destruct (owner s !! m); injection Hs as <-; [by apply inv_own|done].
  - injection Hs as <-. by apply inv_release.
  - (* a fresh item has count 0, hence no owner and no reference handed out *)
    destruct (owner s !! n) eqn:Hn; [done|].
    destruct (decide (fresh s i)) as [(Hc & _)|]; [|done]. injection Hs as <-.
    intros j. specialize (H j). simpl.
    rewrite upd_at, nown_insert_fresh by done. case_decide; [subst|]; lia.
  - destruct (owner s !! n) as [i|] eqn:Hn; [|done].
    destruct (decide (fresh s i')) as [(Hc & _ & Hf)|]; [|done]. injection Hs as <-.
    assert (i ≠ i') as Hne by (by apply (Hf n i)).
    intros j. specialize (H j). simpl. pose proof (nown_replace _ _ _ i' j Hn) as Hr.
    rewrite add_at, upd_at. repeat case_decide; subst; try done; lia.
  - injection Hs as <-. by apply inv_release.
  - destruct (owner s !! n) as [i|]; [|done]. injection Hs as <-.
    intros j. specialize (H j). simpl. rewrite add_at, upd_at. case_decide; [subst|]; lia.
  - destruct (decide (0 < out s i)%nat) as [Hpos|]; [|done]. injection Hs as <-.
    intros j. specialize (H j). simpl. rewrite add_at, upd_at. case_decide; [subst|]; lia.
Qed.

Theorem count_is_owners s : reachable s →
  ∀ i, cnt s i = Z.of_nat (nown (owner s) i) + Z.of_nat (out s i).
Proof.
  induction 1; [|by eapply inv_step]. intros i. simpl. by rewrite nown_empty.
Qed.

Theorem never_negative s : reachable s → ∀ i, 0 ≤ cnt s i.
Proof. intros H i. rewrite (count_is_owners s H i). lia. Qed.

Theorem reachable_positive s n i : reachable s → owner s !! n = Some i → 1 ≤ cnt s i.
Proof.
  intros H Hn. rewrite (count_is_owners s H i). pose proof (nown_pos _ _ _ Hn). lia.
Qed.

Theorem handed_positive s i : reachable s → (out s i > 0)%nat → 1 ≤ cnt s i.
Proof. intros H Ho. rewrite (count_is_owners s H i). lia. Qed.

Theorem all_released s : reachable s → owner s = ∅ → (∀ i, out s i = 0%nat) → ∀ i, cnt s i = 0.
Proof.
  intros H Hown Hout i. rewrite (count_is_owners s H i), Hown, nown_empty, Hout. done.
Qed.

(* a counter only reaches zero when no node caches the item and the caller holds no
   reference to it (that no DecRef takes a counter below zero is never_negative) *)
Theorem zero_means_unreferenced s i : reachable s → cnt s i = 0 →
  out s i = 0%nat ∧ ∀ n, owner s !! n ≠ Some i.
Proof.
  intros H Hc. rewrite (count_is_owners s H i) in Hc. split; [lia|].
  intros n Hn. pose proof (nown_pos _ _ _ Hn). lia.
Qed.

(* in reachable states the extra conjuncts of [fresh] follow from cnt i = 0 *)
Theorem fresh_iff_zero s i : reachable s → fresh s i ↔ cnt s i = 0.
Proof.
  intros H. split; [by intros (? & _)|]. intros Hc.
  destruct (zero_means_unreferenced s i H Hc) as [Ho Hn].
  split_and!; [done..|]. intros n j Hj ->. by apply (Hn n).
Qed.

(* a property that every permitted event preserves holds along every run of such events *)
Lemma run_invariant (P : state → Prop) (ok : event → Prop) :
  (∀ s e s', P s → ok e → step s e = Some s' → P s') →
  ∀ es s s', P s → Forall ok es → run s es = Some s' → P s'.
Proof.
  intros HP es. induction es as [|e es IH]; intros s s' Hs Hok Hr; simpl in Hr.
  - by injection Hr as <-.
  - destruct (step s e) as [s1|] eqn:E; [|done]. inversion_clear Hok.
    apply (IH s1); [by eapply HP|done..].
Qed.

Lemma run_reachable s es s' : reachable s → run s es = Some s' → reachable s'.
Proof.
  intros Hs. apply (run_invariant reachable (λ _, True)); [|done|by apply Forall_true].
  intros s0 e s1 H0 _. by apply reach_step.
Qed.

Lemma run_app s es es' :
  run s (es ++ es') = match run s es with Some s1 => run s1 es' | None => None end.
Proof.
  revert s. induction es as [|e es IH]; intros s; simpl; [done|].
  destruct (step s e); [apply IH|done].
Qed.

Theorem reachable_run s : reachable s ↔ ∃ es, run init es = Some s.
Proof.
  split.
  - induction 1 as [|s e s' _ [es IH] Hs].
    + by exists [].
    + exists (es ++ [e]). rewrite run_app, IH. simpl. by rewrite Hs.
  - intros [es Hr]. eapply run_reachable; [apply reach_init|done].
Qed.

(* the event set with the in-visit eviction that forgot ItemDecRef *)
Inductive event' :=
| Ev (e : event)
| EvEvictNoRelease (n : node).   (* post: delete owner n, counter untouched *)

Definition step' (s : state) (e : event') : option state :=
  match e with
  | Ev e => step s e
  | EvEvictNoRelease n => Some (mkState (cnt s) (delete n (owner s)) (out s))
  end.

Fixpoint run' (s : state) (es : list event') : option state :=
  match es with
  | [] => Some s
  | e :: es' => match step' s e with Some s' => run' s' es' | None => None end
  end.

Inductive reachable' : state → Prop :=
| reach_init' : reachable' init
| reach_step' s e s' : reachable' s → step' s e = Some s' → reachable' s'.

Lemma fresh_init i : fresh init i.
Proof. split_and!; [done..|]. apply map_Forall_empty. Qed.

Theorem leak_run : ∃ s,
  run' init [Ev (EvLoad 1%positive 1%positive); EvEvictNoRelease 1%positive] = Some s ∧
  owner s = ∅ ∧ (∀ i, out s i = 0%nat) ∧ cnt s 1%positive = 1.
Proof.
  eexists. split.
  - cbn [run' step']. by rewrite (step_load_fresh init _ _ eq_refl (fresh_init _)).
  - split_and!; [apply delete_insert, lookup_empty|done..].
Qed.

Lemma run'_reachable' s es s' : reachable' s → run' s es = Some s' → reachable' s'.
Proof.
  revert s. induction es as [|e es IH]; intros s H Hr; simpl in Hr.
  - by injection Hr as <-.
  - destruct (step' s e) as [s1|] eqn:Hs; [|done]. eapply IH; [|done]. by eapply reach_step'.
Qed.

Theorem all_released_refuted :
  ¬ (∀ s, reachable' s → owner s = ∅ → (∀ i, out s i = 0%nat) → ∀ i, cnt s i = 0).
Proof.
  intros H. destruct leak_run as (s & Hr & Ho & Hout & Hc).
  by rewrite (H s (run'_reachable' _ _ _ reach_init' Hr) Ho Hout) in Hc.
Qed.

(* step' extends step: the refutation is due to the added event alone *)
Lemma reachable_reachable' s : reachable s → reachable' s.
Proof.
  induction 1 as [|s e s' _ IH Hs]; [apply reach_init'|].
  by apply (reach_step' s (Ev e) s').
Qed.
